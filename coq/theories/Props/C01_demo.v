(* demo instance: the control frame is well-formed for all arguments of the right widths *)
Require Import AS.Base.Prelude AS.Base.Hex AS.Base.Template AS.Gen.Extracted AS.Spec.Frame
  AS.Base.Layout AS.Model.DeviceTools AS.Proofs.FrameProofs AS.Proofs.FrameAll.

Definition ws_control : list nat := [8; 8; 6; 1; 8]%nat.
Lemma control_cells_ok : c01_cells_ok (sym T_SEND_CONTROL_PACKET ws_control) = true.
Proof. vm_compute. reflexivity. Qed.

Definition hexstr (w : nat) (s : bytes) : Prop := length s = w /\ Forall (fun c => is_hexchar c = true) s.

Theorem control_frame_wellformed : forall sess ts devid cmd timer,
  hexstr 8 sess -> hexstr 8 ts -> hexstr 6 devid -> hexstr 1 cmd -> hexstr 8 timer ->
  exists p out bs,
    format T_SEND_CONTROL_PACKET [AStr sess; AStr ts; AStr devid; AStr cmd; AStr timer] = Ok p /\
    sign_packet_with_crc_key p = Ok out /\ unhexlify out = Some bs /\ frame_okb bs = true.
Proof.
  intros sess ts devid cmd timer [L1 H1] [L2 H2] [L3 H3] [L4 H4] [L5 H5].
  set (rs := [sess; ts; devid; cmd; timer]).
  assert (Hw : widths rs ws_control) by (unfold widths, rs; cbn [map]; rewrite L1, L2, L3, L4, L5; reflexivity).
  destruct (c01_sound (sym T_SEND_CONTROL_PACKET ws_control) rs control_cells_ok) as [out [bs H]].
  - repeat constructor; assumption.
  - exact (U_in_range _ _ _ Hw).
  - exists (map (denote rs) (sym T_SEND_CONTROL_PACKET ws_control)), out, bs.
    split; [exact (format_strs T_SEND_CONTROL_PACKET ws_control rs eq_refl Hw)|exact H].
Qed.
Print Assumptions control_frame_wellformed.
