(* C16 — Thermostat control changes only what was asked *)
Require Import AS.Base.Prelude AS.Base.Hex AS.Base.Exchange AS.Gen.Extracted AS.Model.DeviceTools AS.Model.Messages
  AS.Model.Remotes AS.Model.Api AS.Proofs.ApiProofs AS.Proofs.LengthProofs AS.Spec.FrameLayout AS.Spec.FrameSpec
  AS.Spec.Remote AS.Proofs.SpecOps AS.Proofs.RemoteSpec AS.Proofs.BreezeExact AS.Proofs.BreezeReplies AS.Proofs.Wire.
Local Open Scope N_scope.

(* nothing actionable: RuntimeError after the login frame only, whatever the device answers *)
Theorem C16_nothing_actionable lg c now r swing update script :
  wf_cfg c -> now < 4294967296 ->
  (swing = None \/ (r_sep r = true /\ update = true)) ->
  let '(fs, res) := Exchange.run (control_breeze_device lg c now r None None 0%Z None swing update) script in
  length fs = 1%nat /\ res = Exc RuntimeError.
Proof.
  intros Hc Hn Hsw. unfold Exchange.run, control_breeze_device, bindM.
  destruct (login_writes c now Hc Hn true) as [lf ->].
  destruct (negb _); [cbn; split; reflexivity|].
  destruct Hsw as [-> | [-> ->]]; [|destruct swing]; cbn; rewrite ?andb_false_r; cbn; split; reflexivity.
Qed.
Print Assumptions C16_nothing_actionable.

(* empty login reply: RuntimeError, no further frame *)
Theorem C16_empty_login lg c now r state mode target fan swing update script :
  wf_cfg c -> now < 4294967296 -> hd [] script = [] ->
  let '(fs, res) := Exchange.run (control_breeze_device lg c now r state mode target fan swing update) script in
  length fs = 1%nat /\ res = Exc RuntimeError.
Proof. exact (breeze_empty_login lg c now r state mode target fan swing update script). Qed.
Print Assumptions C16_empty_login.

(* the frame length written by set_message_length is the final length *)
Theorem C16_frame_length m b : unhexlify m = Some b -> (8 <= length m)%nat ->
  N.of_nat (length b + 4) < 65536 ->
  set_message_length false m = Ok (s2l "fef0" ++ hexlify (le16 (N.of_nat (length b + 4))) ++ skipn 8 m) /\
  length (s2l "fef0" ++ hexlify (le16 (N.of_nat (length b + 4))) ++ skipn 8 m) = length m.
Proof. exact (set_message_length_ok m b). Qed.
Print Assumptions C16_frame_length.

(* The exact exchange, for every request and every reported state.  In all four theorems the device is (idb, keyb), the
   clock reads [now] and the login reply r0 carries a session id; in the three of the section the state reply sr parses to [cur]
   and the later replies are non-empty.  The merged value of each field is the requested one, else
   the one the device just reported ([cur]); nothing else of the request or of [cur] reaches the frames. *)
Section Exact.
Variables (idb : bytes) (keyb now : N) (r0 sr r2 : bytes).
Hypothesis Lid : length idb = 3%nat.
Hypothesis Hid : Forall (fun b => b < 256) idb.
Hypothesis Hkey : keyb < 256.
Hypothesis Hnow : now < 4294967296.
Hypothesis Hr0 : Forall (fun b => b < 256) r0.
Hypothesis Lr0 : (12 <= length r0)%nat.
Hypothesis Hsr : sr <> [].
Hypothesis Hr2 : r2 <> [].
Variables (state : option bool) (mode : option string) (target : Z) (fan : option string) (swing : option bool).
Variable cur : thermostat_fields.
Hypothesis Hparse : parse_thermostat_reply sr = Ok cur.
Let c := cfg_of idb keyb.
Let h := hdr_args (pyslice 8 12 r0) now idb.
Let m_on := or_else state (tf_on cur).
Let m_mode := or_else mode (tf_mode cur).
Let m_target := if (target =? 0)%Z then Z.of_N (tf_target cur) else target.
Let m_fan := or_else fan (tf_fan cur).

(* update_state: exactly login, state query, and the status frame of the merged values (swing never for a separate-swing remote) *)
Theorem C16_update_exact (r : remote) rest mbyte fnib mv fv dm df :
  (is_some state || is_some mode || negb (target =? 0)%Z || is_some fan || (is_some swing && negb (r_sep r)))%bool = true ->
  let m_swing := if r_sep r then false else or_else swing (tf_swing_on cur) in
  In (m_mode, mv, dm) thermostat_modes -> hexlify [mbyte] = s2l mv -> mbyte < 256 ->
  In (m_fan, fv, df) fan_levels -> [hexdigit fnib] = s2l fv -> fnib < 16 ->
  Z.to_N m_target < 256 ->
  exists LF GS ST, spec_login true idb [keyb] now = Frame LF /\ frame_of L_get_state2 h = Frame GS /\
    spec_breeze_status h m_on mbyte (Z.to_N m_target) fnib m_swing = Frame ST /\
    Exchange.run (control_breeze_device false c now r state mode target fan swing true) (r0 :: sr :: r2 :: rest) = ([LF; GS; ST], Ok r2).
Proof.
  intros Hmain m_swing Hmode Emv Hmb Hfan Efv Hfn Htg. destruct (sess_facts r0 Hr0 Lr0) as [Ls Hs].
  destruct (login_exact Lid Hid Hkey Hnow true) as [LF [Hlf Elogin]].
  destruct (breeze_query now Lid Hid Hr0 Lr0) as [GS [Hgs Equery]].
  destruct (status_site now Lid Hid Ls Hs m_on m_swing Hmb Htg Hfn Emv Efv) as [ST [Hst Estatus]].
  exists LF, GS, ST. repeat (split; [assumption|]).
  unfold Exchange.run, control_breeze_device, bindM, c. rewrite Elogin.
  cbn [logged_in lr_response lr_session lr_timestamp replies hd cfg_of device_id].
  rewrite (reply_successful r0 Lr0), Hmain. cbn [negb]. rewrite Equery. cbn [push replies tl hd].
  rewrite Hparse, (proj2 (successful_iff sr) Hsr). cbn [negb]. fold m_on m_mode m_target m_fan m_swing.
  rewrite (value_of_row thermostat_modes m_mode mv dm modes_values Hmode), (value_of_row fan_levels m_fan fv df fans_values Hfan).
  rewrite (session_is_bytes r0), Estatus. cbn [push replies tl hd].
  rewrite (proj2 (successful_iff r2) Hr2), Bool.andb_false_r. reflexivity.
Qed.

(* IR: exactly login, state query, and the command the Spec of C15 chooses for the merged values *)
Theorem C16_ir_exact (s : irset) rest text :
  let r := make_remote s in
  (is_some state || is_some mode || negb (target =? 0)%Z || is_some fan || (is_some swing && negb (r_sep r)))%bool = true ->
  (r_sep r && is_some swing)%bool = false ->
  let m_swing := if r_sep r then false else or_else swing (tf_swing_on cur) in
  spec_build s m_on m_mode m_target m_fan m_swing (Some (tf_on cur)) = Code text ->
  Forall (fun b => b < 256) text -> N.of_nat (length text) < 65000 ->
  exists LF GS IR, spec_login true idb [keyb] now = Frame LF /\ frame_of L_get_state2 h = Frame GS /\
    spec_breeze_command h text = Frame IR /\
    Exchange.run (control_breeze_device false c now r state mode target fan swing false) (r0 :: sr :: r2 :: rest) = ([LF; GS; IR], Ok r2).
Proof.
  intros r Hmain Hnosw m_swing Hbuild Hb Hn. destruct (sess_facts r0 Hr0 Lr0) as [Ls Hs].
  pose proof (build_command_is_the_spec s m_on m_mode m_target m_fan m_swing (Some (tf_on cur))) as Hbc.
  rewrite Hbuild, (code_result text Hn) in Hbc. fold r in Hbc.
  destruct (login_exact Lid Hid Hkey Hnow true) as [LF [Hlf Elogin]].
  destruct (breeze_query now Lid Hid Hr0 Lr0) as [GS [Hgs Equery]].
  destruct (ir_site now Lid Hid Ls Hs Hb Hn) as [IR [Hir Eir]].
  exists LF, GS, IR. repeat (split; [assumption|]).
  unfold Exchange.run, control_breeze_device, bindM, c. rewrite Elogin.
  cbn [logged_in lr_response lr_session lr_timestamp replies hd cfg_of device_id].
  rewrite (reply_successful r0 Lr0), Hmain. cbn [negb]. rewrite Equery. cbn [push replies tl hd].
  rewrite Hparse, (proj2 (successful_iff sr) Hsr). cbn [negb]. fold m_on m_mode m_target m_fan m_swing.
  unfold lift. rewrite Hbc. rewrite (session_is_bytes r0), Eir. cbn [push replies tl hd negb].
  rewrite (proj2 (successful_iff r2) Hr2), Bool.andb_true_r, Hnosw. reflexivity.
Qed.

(* IR with a separate swing button: the main command is built without swing and a fourth frame carries the swing command *)
Theorem C16_ir_swing_exact (s : irset) r3 rest text sw text2 :
  let r := make_remote s in
  r_sep r = true -> swing = Some sw ->
  (is_some state || is_some mode || negb (target =? 0)%Z || is_some fan)%bool = true ->
  spec_build s m_on m_mode m_target m_fan false (Some (tf_on cur)) = Code text ->
  Forall (fun b => b < 256) text -> N.of_nat (length text) < 65000 ->
  spec_swing s sw = Code text2 ->
  Forall (fun b => b < 256) text2 -> N.of_nat (length text2) < 65000 ->
  exists LF GS IR SW, spec_login true idb [keyb] now = Frame LF /\ frame_of L_get_state2 h = Frame GS /\
    spec_breeze_command h text = Frame IR /\ spec_breeze_command h text2 = Frame SW /\
    Exchange.run (control_breeze_device false c now r state mode target fan swing false) (r0 :: sr :: r2 :: r3 :: rest)
      = ([LF; GS; IR; SW], Ok r3).
Proof.
  intros r Hsep Hswing Hmain Hbuild Hb Hn Hsw Hb2 Hn2. destruct (sess_facts r0 Hr0 Lr0) as [Ls Hs].
  pose proof (build_command_is_the_spec s m_on m_mode m_target m_fan false (Some (tf_on cur))) as Hbc.
  rewrite Hbuild, (code_result text Hn) in Hbc. fold r in Hbc.
  pose proof (swing_is_the_spec s sw) as Hsc. rewrite Hsw, (code_result text2 Hn2) in Hsc. fold r in Hsc.
  destruct (login_exact Lid Hid Hkey Hnow true) as [LF [Hlf Elogin]].
  destruct (breeze_query now Lid Hid Hr0 Lr0) as [GS [Hgs Equery]].
  destruct (ir_site now Lid Hid Ls Hs Hb Hn) as [IR [Hir Eir]].
  destruct (ir_site now Lid Hid Ls Hs Hb2 Hn2) as [SW [Hsw' Esw]].
  exists LF, GS, IR, SW. repeat (split; [assumption|]).
  unfold Exchange.run, control_breeze_device, bindM, c. rewrite Elogin.
  cbn [logged_in lr_response lr_session lr_timestamp replies hd cfg_of device_id].
  rewrite (reply_successful r0 Lr0), Hmain, Hsep, Hswing. cbn [orb is_some or_else andb negb]. rewrite Equery. cbn [push replies tl hd].
  rewrite Hparse, (proj2 (successful_iff sr) Hsr). cbn [negb]. fold m_on m_mode m_target m_fan.
  unfold lift. rewrite Hbc. cbn [fst snd]. rewrite (session_is_bytes r0), Eir. cbn [push replies tl hd].
  rewrite (proj2 (successful_iff r2) Hr2). unfold ret at 1. rewrite Hsc. cbn [fst snd]. rewrite Esw. reflexivity.
Qed.
End Exact.
Print Assumptions C16_update_exact.
Print Assumptions C16_ir_exact.
Print Assumptions C16_ir_swing_exact.

(* only the swing of a separate-swing remote: no state query, no main command, one swing frame *)
Theorem C16_swing_only_exact idb keyb now r0 r1 rest (s : irset) sw text2 :
  length idb = 3%nat -> Forall (fun b => b < 256) idb -> keyb < 256 -> now < 4294967296 ->
  Forall (fun b => b < 256) r0 -> (12 <= length r0)%nat ->
  let r := make_remote s in
  r_sep r = true -> spec_swing s sw = Code text2 ->
  Forall (fun b => b < 256) text2 -> N.of_nat (length text2) < 65000 ->
  exists LF SW, spec_login true idb [keyb] now = Frame LF /\
    spec_breeze_command (hdr_args (pyslice 8 12 r0) now idb) text2 = Frame SW /\
    Exchange.run (control_breeze_device false (cfg_of idb keyb) now r None None 0%Z None (Some sw) false) (r0 :: r1 :: rest)
      = ([LF; SW], Ok r1).
Proof.
  intros Lid Hid Hkey Hnow Hr0 Lr0 r Hsep Hsw Hb2 Hn2. destruct (sess_facts r0 Hr0 Lr0) as [Ls Hs].
  pose proof (swing_is_the_spec s sw) as Hsc. rewrite Hsw, (code_result text2 Hn2) in Hsc. fold r in Hsc.
  destruct (login_exact Lid Hid Hkey Hnow true) as [LF [Hlf Elogin]].
  destruct (ir_site now Lid Hid Ls Hs Hb2 Hn2) as [SW [Hsw' Esw]].
  exists LF, SW. repeat (split; [assumption|]).
  unfold Exchange.run, control_breeze_device, bindM. rewrite Elogin.
  cbn [logged_in lr_response lr_session lr_timestamp replies hd cfg_of device_id].
  rewrite (reply_successful r0 Lr0), Hsep. cbn [orb is_some or_else andb negb Z.eqb].
  unfold ret at 1. unfold lift. rewrite Hsc. rewrite (session_is_bytes r0), Esw. reflexivity.
Qed.
Print Assumptions C16_swing_only_exact.

(* it never reports success on an empty reply.  For every configuration, remote, request, flag and reply script (no premise at all): if
   the call returns a non-empty response, then every reply it read - one per frame written, in order - was non-empty, and the response
   is the reply to the last frame.  (Contrapositive: an empty reply at any step gives an exception or an empty, i.e. unsuccessful,
   response.) *)
Theorem C16_success_means_every_reply lg c now r state mode target fan swing update script fs resp :
  Exchange.run (control_breeze_device lg c now r state mode target fan swing update) script = (fs, Ok resp) ->
  resp <> [] ->
  (length fs <= length script)%nat /\ Forall (fun x => x <> []) (firstn (length fs) script) /\
  nth_error script (length fs - 1) = Some resp.
Proof. exact (breeze_success_means_every_reply lg c now r state mode target fan swing update script fs resp). Qed.
Print Assumptions C16_success_means_every_reply.
