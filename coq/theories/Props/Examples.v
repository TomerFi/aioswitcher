(* Non-vacuity: the property theorems instantiated at concrete devices, requests and replies, their premises discharged
   by computation.  Nothing here is a new claim; every Example applies a theorem of Props/Cxx.v. *)
Require Import AS.Base.Prelude AS.Base.Hex AS.Spec.FrameLayout AS.Spec.Encoders AS.Spec.FrameSpec AS.Model.Messages
  AS.Model.Remotes AS.Model.ScheduleTools AS.Model.Api AS.Proofs.SpecOps.
Require AS.Props.C02 AS.Props.C16.
Open Scope N_scope.

Definition idb : bytes := [171; 28; 45].
Definition keyb : N := 24.
Definition now : N := 1700000000.
Definition r0 : bytes := repeat 7 8 ++ [161; 178; 195; 212] ++ repeat 0 8.          (* a login reply carrying session a1 b2 c3 d4 *)
Definition h := hdr_args (pyslice 8 12 r0) now idb.

Lemma idb_ok : length idb = 3%nat /\ Forall (fun b => b < 256) idb. Proof. split; [reflexivity|repeat constructor]. Qed.
Lemma r0_ok : Forall (fun b => b < 256) r0 /\ (12 <= length r0)%nat.
Proof. split; [vm_compute; repeat constructor|vm_compute; lia]. Qed.

(* C02: switch on for 90 minutes *)
Example C02_control_example :
  outcome_is idb keyb now [[1]] (Exchange.run (control_device_op false (cfg_of idb keyb) now (s2l "1") 90) (r0 :: [[1]])) (spec_control h true 90)
  /\ match spec_control h true 90 with Frame b => length b = 93%nat | _ => False end.
Proof.
  split; [|vm_compute; reflexivity].
  exact (C02.C02_control_device idb keyb now r0 [[1]] (proj1 idb_ok) (proj2 idb_ok) ltac:(reflexivity) ltac:(reflexivity) (proj1 r0_ok) (proj2 r0_ok) true 90%Z).
Qed.

Lemma mon_sun_bd : forall d, In d [0; 6]%nat -> (d < n_days)%nat. Proof. intros d [<-|[<-|[]]]; vm_compute; lia. Qed.

(* C02: a schedule 7:05 - 23:59 on Monday and Sunday, and one with a repeated day *)
Example C02_create_example :
  outcome_is idb keyb now [[1]] (Exchange.run (create_schedule_op false (cfg_of idb keyb) now 1699920000 (s2l "7:05") (s2l "23:59") (ASeq [0; 6]%nat)) (r0 :: [[1]]))
             (spec_create h 1699920000 (s2l "7:05") (s2l "23:59") [0; 6]%nat)
  /\ match spec_create h 1699920000 (s2l "7:05") (s2l "23:59") [0; 6]%nat with Frame b => length b = 99%nat | _ => False end
  /\ spec_create h 1699920000 (s2l "7:05") (s2l "23:59") [0; 6; 0]%nat = MustRaise.
Proof.
  split; [|split; vm_compute; reflexivity].
  apply (C02.C02_create_schedule idb keyb now r0 [[1]] (proj1 idb_ok) (proj2 idb_ok) ltac:(reflexivity) ltac:(reflexivity) (proj1 r0_ok) (proj2 r0_ok)).
  - left. reflexivity.
  - exact mon_sun_bd.
Qed.

(* C16: a thermostat that reports OFF / COOL / 24 degrees / fan MEDIUM / swing on is switched on, nothing else given *)
Definition sr : bytes := encode_thermostat_reply (repeat 0 76) [0; 0] (repeat 0 20) 250 0 4 24 33 (s2l "ELEC7001").
Definition cur : thermostat_fields :=
  {| tf_on := false; tf_mode := "COOL"; tf_fan := "MEDIUM"; tf_temp10 := 250; tf_target := 24; tf_swing_on := true; tf_remote := s2l "ELEC7001" |}.
Lemma sr_parses : parse_thermostat_reply sr = Ok cur. Proof. vm_compute. reflexivity. Qed.
Definition set1 : irset := {| ir_id := s2l "ELEC7001"; ir_onoff := 0;
                              ir_waves := [{| w_key := s2l "ar24_f2_d1"; w_para := s2l "P"; w_hex := s2l "C0FFEE" |};
                                           {| w_key := s2l "off"; w_para := s2l "P"; w_hex := s2l "0FF0" |}] |}.

Example C16_update_example :
  exists LF GS ST, spec_login true idb [keyb] now = Frame LF /\ frame_of L_get_state2 h = Frame GS /\
    spec_breeze_status h true 4 24 2 true = Frame ST /\
    Exchange.run (control_breeze_device false (cfg_of idb keyb) now (make_remote set1) (Some true) None 0%Z None None true) (r0 :: sr :: [1] :: [])
      = ([LF; GS; ST], Ok [1]).
Proof.
  apply (C16.C16_update_exact idb keyb now r0 sr [1] (proj1 idb_ok) (proj2 idb_ok) ltac:(reflexivity) ltac:(reflexivity) (proj1 r0_ok) (proj2 r0_ok)
           ltac:(discriminate) ltac:(discriminate) (Some true) None 0%Z None None cur sr_parses (make_remote set1) [] 4 2 "04"%string "2"%string "cool"%string "medium"%string);
    try reflexivity; vm_compute; tauto.
Qed.

(* the same request as an IR command: the Spec of C15 picks the stored code ar24_f2_d1, and the frame carries it *)
Example C16_ir_example :
  exists LF GS IR, spec_login true idb [keyb] now = Frame LF /\ frame_of L_get_state2 h = Frame GS /\
    spec_breeze_command h (s2l "P|C0FFEE") = Frame IR /\
    Exchange.run (control_breeze_device false (cfg_of idb keyb) now (make_remote set1) (Some true) None 0%Z None None false) (r0 :: sr :: [1] :: [])
      = ([LF; GS; IR], Ok [1]).
Proof.
  apply (C16.C16_ir_exact idb keyb now r0 sr [1] (proj1 idb_ok) (proj2 idb_ok) ltac:(reflexivity) ltac:(reflexivity) (proj1 r0_ok) (proj2 r0_ok)
           ltac:(discriminate) ltac:(discriminate) (Some true) None 0%Z None None cur sr_parses set1 [] (s2l "P|C0FFEE"));
    try (vm_compute; reflexivity); repeat constructor.
Qed.

(* and an empty reply to the command never reads as success *)
Example C16_empty_reply_example :
  snd (Exchange.run (control_breeze_device false (cfg_of idb keyb) now (make_remote set1) (Some true) None 0%Z None None false) (r0 :: sr :: [] :: [])) = Exc RuntimeError.
Proof. vm_compute. reflexivity. Qed.

(* C08: the reply used above is what the Spec encoder produces, and the theorem says what it decodes to *)
Require AS.Props.C08 AS.Props.C11.
Example C08_thermostat_example :
  parse_thermostat_reply (encode_thermostat_reply (repeat 0 76) [0; 0] (repeat 0 20) 250 (if false then 1 else 0)
                            (match unhex_str "04" with [m] => m | _ => 0 end) 24 (16 * 2 + (if true then 1 else 0)) (pad0 8 (s2l "ELEC7001")))
  = Ok {| tf_on := false; tf_mode := "COOL"; tf_fan := "MEDIUM"; tf_temp10 := 250; tf_target := 24; tf_swing_on := true; tf_remote := s2l "ELEC7001" |}.
Proof.
  apply (C08.C08_thermostat_reply (repeat 0 76) [0; 0] (repeat 0 20) 250 false "COOL" "04" "cool" 24 "MEDIUM" "2" "medium" 2 true (s2l "ELEC7001"));
    try reflexivity; try (vm_compute; tauto); try (vm_compute; lia); vm_compute; discriminate.
Qed.

(* C11: a zone two hours ahead that moves to three hours ahead at t = 1 700 010 000 (02:20 local time): 10:30 exists on that day,
   is encoded to an instant whose local time is 10:30 and decodes back *)
Import ScheduleParser Clock.
Definition zone1 : zone := {| z_default := 7200; z_trans := [(1700010000, 10800)%Z] |}.
Example C11_roundtrip_example :
  exists t, time_to_hexadecimal_timestamp_z false zone1 1700000000%Z (s2l "10:30") = Ok (hexlify (le32 (Z.to_N t))) /\
            hexadecimale_timestamp_to_localtime zone1 (hexlify (le32 (Z.to_N t))) = Ok (s2l "10:30").
Proof.
  destruct (C11.C11_roundtrip zone1 1700000000%Z 630 ltac:(reflexivity)) as [t [H1 [_ H3]]].
  - exists 1700033400%Z. vm_compute. reflexivity.
  - vm_compute. split; [discriminate|reflexivity].
  - exists t. split; [exact H1|exact H3].
Qed.

(* C03: two operations on one connection (a control command whose login is answered with session a1b2c3d4, then a name
   change whose login is answered with session 11223344), and a third after a login that gets no answer: four frames plus a
   lone login frame; bytes 8-11 of each command frame are the session of the login reply just before it (replies 0 and 2 of
   the script), never an earlier one *)
Require AS.Props.C03.
Require Import AS.Model.Ops AS.Model.Session AS.Spec.Session.
Definition r1 : bytes := repeat 7 8 ++ [17; 34; 51; 68] ++ repeat 0 8.
Definition seq3 : list (N * op) := [(now, OControl true 90%Z); (now + 5, OSetName (s2l "boiler")); (now + 9, OStop)].
Example C03_sequence_example :
  let '(fs, rs) := run_seq (cfg_of idb keyb) seq3 [r0; [1]; r1; [1]] in
  map (pyslice 8 12) fs = [[0; 0; 0; 0]; [161; 178; 195; 212]; [0; 0; 0; 0]; [17; 34; 51; 68]; [0; 0; 0; 0]] /\
  map (pyslice 24 28) fs = [le32 now; le32 now; le32 (now + 5); le32 (now + 5); le32 (now + 9)] /\
  rs = [Ok (s2l "ok:1"); Ok (s2l "ok:1"); Exc RuntimeError] /\
  (fs, rs) = (concat (map fst (alone (cfg_of idb keyb) seq3 [r0; [1]; r1; [1]])), map snd (alone (cfg_of idb keyb) seq3 [r0; [1]; r1; [1]])).
Proof.
  pose proof (C03.C03_operations_are_independent (cfg_of idb keyb) seq3 [r0; [1]; r1; [1]]) as H.
  destruct (run_seq (cfg_of idb keyb) seq3 [r0; [1]; r1; [1]]) as [fs rs] eqn:E.
  vm_compute in E. injection E as <- <-. split; [|split; [|split; [|exact H]]]; vm_compute; reflexivity.
Qed.

(* C10: in UTC on 14 Nov 2023 a schedule 07:05 - 23:59 on Monday and Sunday is created; listed back from slot 3 two days later it
   shows those days and those times *)
Require AS.Props.C10.
Require Import AS.Proofs.ReadBack.
Lemma c10_e1 : exists_today utc 1700000000 425.
Proof. split; [exists 1699945500%Z; vm_compute; reflexivity|vm_compute; split; [discriminate|reflexivity]]. Qed.
Lemma c10_e2 : exists_today utc 1700000000 1439.
Proof. split; [exists 1700006340%Z; vm_compute; reflexivity|vm_compute; split; [discriminate|reflexivity]]. Qed.
Lemma c10_nd : NoDup [0; 6]%nat. Proof. repeat constructor; cbn; intuition lia. Qed.
Example C10_read_back_example :
  exists dur disp,
    parse_schedule false false utc 1700172800 (hexlify (record 3 1 (sum_bits [0; 6]%nat) 0 (Z.to_N (instant utc 1700000000 425)) (Z.to_N (instant utc 1700000000 1439)) 0 0 0 0)) =
    Ok {| sc_id := s2l "3"; sc_recurring := true; sc_days := [0; 6]%nat; sc_start := s2l "07:05"; sc_end := s2l "23:59"; sc_duration := dur; sc_display := disp |}.
Proof.
  pose proof (C10.C10_created_schedule_reads_back utc 1700000000 1700172800 425 1439 [0; 6]%nat 3 1 0 0 0 0 0
          ltac:(reflexivity) ltac:(reflexivity) c10_e1 c10_e2 ltac:(discriminate) c10_nd mon_sun_bd ltac:(reflexivity)) as H.
  destruct H as (_ & _ & _ & _ & dur & disp & H).
  exists dur, disp. exact H.
Qed.
