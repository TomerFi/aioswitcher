(* C17 — The bridge listens exactly while running and leaves nothing behind *)
Require Import AS.Base.Prelude AS.Model.Lifecycle AS.Proofs.LifecycleProofs AS.Model.MultiBridge AS.Proofs.MultiBridgeProofs.

Theorem C17_lifecycle ports acts : let s := run false ports acts in
  (running s = true -> forall p, In p ports -> os s p = Bridge) /\
  (running s = false -> forall p, os s p <> Bridge) /\
  (forall p, snd (step false ports s (ASend p)) = ODelivered <-> (running s = true /\ In p ports)).
Proof.
  intros s. destruct (run_inv ports acts) as [_ Hb].
  assert (H : forall p, os s p = Bridge <-> running s = true /\ In p ports).
  { intros p. rewrite <- is_bridge_true, Hb, Bool.andb_true_iff, mem_In. reflexivity. }
  split; [|split].
  - intros R p Hp. apply H. tauto.
  - intros R p Hp. apply H in Hp. destruct Hp. congruence.
  - intros p. rewrite <- H. cbn [step snd]. destruct (os s p); split; congruence.
Qed.
Print Assumptions C17_lifecycle.


(* any number of bridge objects in one process, each with its own port list [cfg i] (Model/MultiBridge.v), after any history of
   start / stop of any object and foreign sockets coming and going: every object is running exactly while it holds all of its ports,
   holds none otherwise, and receives a broadcast exactly when it is running on that port *)
Theorem C17_every_object cfg acts i : let s := mrun cfg acts in
  (rflag s i = true -> forall p, In p (cfg i) -> held s i p) /\
  (rflag s i = false -> forall p, ~ held s i p) /\
  (forall p, delivered_to s p i = true <-> (rflag s i = true /\ In p (cfg i))).
Proof.
  intros s. destruct (mrun_inv cfg acts) as [_ Hb].
  assert (H : forall p, delivered_to s p i = true <-> (rflag s i = true /\ In p (cfg i))).
  { intros p. change (delivered_to s p i) with (owns (m_os s p) i). rewrite Hb, Bool.andb_true_iff, mem_In. reflexivity. }
  split; [|split; [|exact H]]; intros R p Hp.
  - apply owns_held, H. split; assumption.
  - apply owns_held, H in Hp. destruct Hp. congruence.
Qed.
Print Assumptions C17_every_object.

(* what is done with other objects (start, failed start, stop, repeated stop) or by foreign sockets leaves an object as it was *)
Theorem C17_objects_are_independent cfg acts a i : ~ names a i ->
  let s := mrun cfg acts in
  rflag (mstep cfg s a) i = rflag s i /\ forall q, held (mstep cfg s a) i q <-> held s i q.
Proof.
  intros Hn s. destruct (mrun_inv cfg acts) as [Hc Hb]. destruct (mstep_spec cfg s a (conj Hc Hb)) as [[_ Hb'] Hr].
  specialize (Hr i Hn). split; [exact Hr|]. intros q. rewrite <- !owns_held, Hb', Hb, Hr. reflexivity.
Qed.
Print Assumptions C17_objects_are_independent.

(* the premises are met by real histories: object 0 running on ports 1 and 2 while object 1 (same ports) is stopped twice and
   object 2 fails to start, its first port being taken *)
Example C17_objects_example :
  let s := mrun (fun _ => [1; 2]%nat) [MStart 0; MStop 1; MStart 2; MStop 1] in
  rflag s 0 = true /\ rflag s 2 = false /\ m_os s 1%nat = MBridge 0 /\ m_os s 2%nat = MBridge 0.
Proof. vm_compute. repeat split. Qed.

(* the same as a refinement of the property's own reading of a history (Spec/BridgeHistory.v: two facts are remembered, "running"
   and "which ports a foreign socket holds").  For every duplicate-free, non-empty port list and every action sequence the model's
   observations (started / raised / delivered / dropped), its flag and its OS table are exactly those of the history reading:
   start raises and changes nothing when the bridge runs already or a configured port is taken, otherwise the bridge runs and
   holds every configured port; stop always ends in "not running, every port given back", repeated or before any start; a
   stopped bridge starts again; a datagram is delivered exactly while running, on a configured port *)
Require Import AS.Spec.BridgeHistory AS.Proofs.BridgeRefine.
Theorem C17_refines_history ports acts : NoDup ports -> ports <> [] ->
  let s := run false ports acts in let a := fst (a_trace ports a_init acts) in
  snd (c_trace ports init acts) = snd (a_trace ports a_init acts) /\
  running s = a_run a /\ forall q, os s q = a_owner ports a q.
Proof.
  intros Hnd Hne s a. destruct (trace_refines ports Hnd Hne acts init a_init (R_init ports)) as [E HR].
  unfold s, run. rewrite <- c_trace_run. split; [exact E|]. split; [apply HR|exact (R_owner _ _ _ HR)].
Qed.
Print Assumptions C17_refines_history.

(* the reading at work: port 2 taken -> start raises, nothing held; released -> start succeeds, both ports held, a second start
   raises and changes nothing; stop twice; start again *)
Example C17_history_example :
  let acts := [AOccupy 2; AStart; ASend 1; ARelease 2; AStart; AStart; ASend 1; AStop; AStop; ASend 1; AStart]%nat in
  snd (a_trace [1; 2]%nat a_init acts) = [ONone; ORaised; ODropped; ONone; OStarted; ORaised; ODelivered; ONone; ONone; ODropped; OStarted] /\
  a_run (fst (a_trace [1; 2]%nat a_init acts)) = true /\
  snd (c_trace [1; 2]%nat init acts) = snd (a_trace [1; 2]%nat a_init acts).
Proof. split; [vm_compute; reflexivity|]. split; [vm_compute; reflexivity|]. apply C17_refines_history; [repeat constructor; cbn; intuition lia|discriminate]. Qed.
