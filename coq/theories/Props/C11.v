(* C11 — Clock times survive encoding and decoding in every time zone and on every date *)
Require Import AS.Base.Prelude AS.Base.Hex AS.Base.Dec AS.Model.ScheduleParser AS.Model.Clock AS.Proofs.ClockProofs.

(* for every zone table: mktime (modelled as a search over the zone's offsets) returns a pre-image whenever the wall-clock time exists *)
Local Open Scope Z_scope.
Theorem C11_mktime_finds z L : (exists t, local_secs z t = L) -> local_secs z (mktime_model z L) = L.
Proof. exact (mktime_finds z L). Qed.
Print Assumptions C11_mktime_finds.

(* round trip, every zone table, every instant, every existing minute of today *)
Theorem C11_roundtrip z now hm : (hm < 1440)%N ->
  let h := (hm / 60)%N in let m := (hm mod 60)%N in
  let L := 86400 * today z now + Z.of_N (3600 * h + 60 * m) in
  (exists t, local_secs z t = L) ->                       (* the wall-clock time exists today *)
  0 <= mktime_model z L < 4294967296 ->
  exists t, time_to_hexadecimal_timestamp_z false z now (hhmm hm) = Ok (hexlify (le32 (Z.to_N t))) /\
            local_secs z t = L /\
            hexadecimale_timestamp_to_localtime z (hexlify (le32 (Z.to_N t))) = Ok (hhmm hm).
Proof. exact (clock_roundtrip z now hm). Qed.
Print Assumptions C11_roundtrip.
