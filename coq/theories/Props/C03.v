(* C03 — Every operation logs in first and binds its commands to that login's session *)
Require Import AS.Base.Prelude AS.Base.Hex AS.Spec.FrameLayout AS.Spec.FrameSpec AS.Model.Api AS.Model.Ops
  AS.Proofs.ApiProofs AS.Proofs.HeaderFields AS.Proofs.Uniform AS.Model.Session AS.Spec.Session.
Local Open Scope N_scope.

(* 1. Any sequence of operations awaited on one connection (Model/Session.v threads the connection through them: the frames
   written so far and the device's remaining replies), any device script: the frames on the wire and the outcomes are those
   of each operation run ALONE on a fresh connection whose device answers with the replies the earlier operations have not
   consumed - exactly one reply per frame they wrote (Spec/Session.v).  So an operation's frames and outcome are a function of
   the configuration, its own clock reading, its own arguments and its own replies: no session id, clock reading or device
   identity of an earlier operation reaches it.  The proof is the frame rule of the exchange model (Proofs/Uniform.v), proved
   for every operation of both API classes.  That the Python classes behave like this model under sequences and
   interleavings is what the correspondence streams of the check test. *)
Theorem C03_operations_are_independent c ops script :
  run_seq c ops script = (concat (map fst (alone c ops script)), map snd (alone c ops script)).
Proof. unfold run_seq. rewrite seq_ops_alone. reflexivity. Qed.
Print Assumptions C03_operations_are_independent.

(* 1b. Any number of API objects, each with its own configuration and connection, performing operations in any order
   (Model/Session.v run_world): the connection and the outcomes of object k are those of its own operations, in order, on its
   own connection - whatever the other objects do in between *)
Theorem C03_objects_do_not_interfere cfgs sched w k :
  fst (run_world cfgs sched w) k = fst (seq_ops (cfgs k) (mine k sched) (w k)) /\
  results_of k (snd (run_world cfgs sched w)) = snd (seq_ops (cfgs k) (mine k sched) (w k)).
Proof.
  revert w k. induction sched as [|[j [now o]] rest IH]; intros w k; [split; reflexivity|].
  cbn [run_world]. destruct (run_op (cfgs j) now o (w j)) as [st r] eqn:E.
  specialize (IH (wupd w j st) k). destruct (run_world cfgs rest (wupd w j st)) as [w' rs] eqn:Er.
  cbn [fst snd] in *. unfold mine, results_of in *. cbn [filter fst].
  destruct (Nat.eqb_spec j k) as [->|Hne].
  - cbn [map snd seq_ops]. rewrite E. rewrite wupd_same in IH.
    destruct (seq_ops (cfgs k) _ st) as [st2 rs2]. destruct IH as [A B]. split; [exact A|rewrite B; reflexivity].
  - rewrite wupd_other in IH by congruence. exact IH.
Qed.
Print Assumptions C03_objects_do_not_interfere.

(* 2. Shape of one operation, for every script of device replies: the login frame first; nothing else after an empty
   login reply; exactly one command frame otherwise (type-1 state query; the other operations: theorems of C02, whose
   conclusion gives the exact frame list [login frame; command frame]) *)
Theorem C03_get_state_frames c now script : wf_cfg c -> now < 4294967296 -> script_wf script ->
  let '(fs, r) := Exchange.run (get_state c now) script in
  ((exists v, r = Ok v) \/ r = Exc RuntimeError) /\
  (hd [] script = [] -> length fs = 1%nat /\ r = Exc RuntimeError) /\
  (hd [] script <> [] -> length fs = 2%nat).
Proof. exact (get_state_exchange c now script). Qed.
Print Assumptions C03_get_state_frames.

(* 3. The login frame of the Spec carries a zero session, this operation's timestamp and the credential: the login key
   for type 1 (byte 40), the device id for type 2 (bytes 40-42) *)
Theorem C03_login_frame_type1 keyb now LF : keyb < 256 -> spec_login false [] [keyb] now = Frame LF ->
  pyslice 8 12 LF = [0; 0; 0; 0] /\ pyslice 24 28 LF = le32 now /\ pyslice 40 41 LF = [keyb].
Proof.
  intros Hk H. apply (login_frame_fields 82 T1 [161; 0] [52; 0] [keyb] (zeros 37) now); try reflexivity;
    try (repeat constructor; fail); try exact H.
  constructor; [exact Hk|constructor].
Qed.
Print Assumptions C03_login_frame_type1.
Theorem C03_login_frame_type2 idb now LF : length idb = 3%nat -> Forall (fun b => b < 256) idb ->
  spec_login true idb [] now = Frame LF ->
  pyslice 8 12 LF = [0; 0; 0; 0] /\ pyslice 24 28 LF = le32 now /\ pyslice 40 43 LF = idb.
Proof.
  intros Hl Hb H.
  destruct (login_frame_fields 48 T2 [166; 0] [255; 3] idb [0] now eq_refl eq_refl eq_refl) with (LF := LF) as [A [B C]];
    try (repeat constructor; fail); try exact Hb; try exact H.
  rewrite Hl in C. auto.
Qed.
Print Assumptions C03_login_frame_type2.

(* 4. Every command frame of the Spec (any layout that starts with the 40-byte header and the device id) carries at
   bytes 8-11 the session bytes it was built from, at 24-27 the timestamp and at 40-42 the device id.  With C02's
   theorems (frames = [login frame; frame_of L (hdr_args (bytes 8-11 of THIS login's reply) now id ++ ...)]) this is:
   commands are bound to the session returned in that very login reply, to this operation's clock reading and to the
   configured device *)
Theorem C03_command_frame_fields len proto cmd sub sess idb now restL args CF :
  length proto = 2%nat -> length cmd = 2%nat -> length sub = 2%nat -> length sess = 4%nat -> length idb = 3%nat ->
  Forall (fun b => b < 256) proto -> Forall (fun b => b < 256) cmd -> Forall (fun b => b < 256) sub ->
  Forall (fun b => b < 256) sess -> Forall (fun b => b < 256) idb ->
  frame_of (header len proto cmd sub ++ SA 2 :: restL) (hdr_args sess now idb ++ args) = Frame CF ->
  pyslice 8 12 CF = sess /\ pyslice 24 28 CF = le32 now /\ pyslice 40 43 CF = idb.
Proof. intros. eapply (frame_fields len proto cmd sub sess idb now restL args); eassumption. Qed.
Print Assumptions C03_command_frame_fields.
