(* C15 — The IR command built is the stored code that best matches the request *)
Require Import AS.Base.Prelude AS.Base.Hex AS.Model.DeviceTools AS.Model.Remotes AS.Spec.IrChoice AS.Spec.Remote
  AS.Proofs.RemotesProofs AS.Proofs.LengthProofs AS.Proofs.RemoteSpec.

(* The Spec (Spec/Remote.v), over the list of stored waves, without loops or pops: capabilities = modes with a key starting with
   their code (first appearance order), min / max over keys whose characters 2..4 are digits, toggle = OnOffType 1, separate swing =
   id in the list; the code of a request = the stored wave (a later entry replaces an earlier one) of the most specific key among
   [exact; without swing; without fan level] after clamping the temperature, 'off' for a non-toggle remote switching off, the 'on_'
   prefix only when a toggle remote changes power state, Refused for a mode that is not supported; Silent when none of the three
   keys (or the 'off' code) is stored. *)

(* the remote built from an IR set reports exactly the capabilities present in the set *)
Theorem C15_capabilities s :
  let r := make_remote s in (r_supported r, r_min r, r_max r, r_toggle r, r_sep r) = spec_capabilities s.
Proof. exact (capabilities_are_those_of_the_set s). Qed.
Print Assumptions C15_capabilities.

(* for every IR set and every request: the command and its length field are the Spec's; an unsupported mode is RuntimeError *)
Theorem C15_build_command s on mode target fan swing current :
  match result_of_spec (spec_build s on mode target fan swing current) with
  | Some r' => build_command false (make_remote s) on mode target fan swing current = r'
  | None => True
  end.
Proof. exact (build_command_is_the_spec s on mode target fan swing current). Qed.
Print Assumptions C15_build_command.

(* the pop loop returns the most specific stored prefix of the key list, else its first part *)
Theorem C15_lookup_is_most_specific present key : key <> [] ->
  exists n, lookup_key present key = firstn n key /\ is_choice present key n.
Proof.
  induction key as [|x P IH] using rev_ind; [contradiction|]. intros _. unfold is_choice. rewrite app_length. cbn [length].
  destruct P as [|y P'].
  { exists 1%nat. cbn. repeat split; intros; lia. }
  set (P := y :: P') in *. rewrite lookup_key_snoc by discriminate. destruct (present (concat (P ++ [x]))) eqn:E.
  - exists (length (P ++ [x])). rewrite firstn_all, app_length. cbn [length]. repeat split; intros; try lia. exact E.
  - destruct (IH ltac:(discriminate)) as (n & Hn & Hr & Hp & Hq). exists n. rewrite (firstn_app_le n P [x]) by lia.
    split; [exact Hn|]. split; [lia|]. split; [exact Hp|]. intros n' H.
    destruct (Nat.eq_dec n' (length (P ++ [x]))) as [->|Hne]; [rewrite firstn_all; exact E|].
    rewrite app_length in Hne. cbn [length] in Hne. rewrite (firstn_app_le n' P [x]) by lia. apply Hq. lia.
Qed.
Print Assumptions C15_lookup_is_most_specific.

(* the payload length field is the little-endian 16-bit byte count *)
Local Open Scope N_scope.
Theorem C15_length_field c : Nat.even (length c) = true -> N.of_nat (length c / 2) < 65536 ->
  breeze_command_length false c = Ok (hexlify (le16 (N.of_nat (length c / 2)))).
Proof. intros _. exact (breeze_command_length_ok c). Qed.
Print Assumptions C15_length_field.
