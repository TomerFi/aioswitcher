(* C07 — The bridge delivers each valid broadcast once, in order, whatever else arrives *)
Require Import AS.Base.Prelude AS.Model.Bridge AS.Proofs.DispatchProofs.

(* for every event sequence on any ports and every pattern of raising callbacks (event loop modelled as: an exception leaving datagram_received is recorded and the next datagram is processed) *)
Theorem C07_exactly_once_in_order lm lt raises events : calls (loop_run lm lt raises events) = expected lm lt events.
Proof. unfold loop_run. rewrite loop_calls. reflexivity. Qed.
Print Assumptions C07_exactly_once_in_order.

Theorem C07_per_port_independent lm lt raises events p :
  on_port p (calls (loop_run lm lt raises events)) =
  flat_map (fun d => match delivered lm lt d with Some x => [x] | None => [] end) (on_port p events).
Proof.
  rewrite C07_exactly_once_in_order. unfold expected, on_port. induction events as [|[q d] events IH]; [reflexivity|].
  cbn [flat_map]. rewrite flat_map_app, IH. destruct (Nat.eqb q p) eqn:E.
  - cbn [flat_map app]. destruct (delivered lm lt d); cbn [flat_map app]; rewrite ?E, ?app_nil_r; reflexivity.
  - destruct (delivered lm lt d); cbn [flat_map app]; rewrite ?E; reflexivity.
Qed.
Print Assumptions C07_per_port_independent.

