(* C08 — State replies are decoded into exactly what the device reported *)
Require Import AS.Base.Prelude AS.Base.Hex AS.Base.Dec AS.Base.Utf8 AS.Gen.Extracted AS.Model.Messages AS.Spec.Encoders
  AS.Proofs.MessagesProofs AS.Proofs.FloatProofs AS.Base.Float AS.Base.Layout.
Local Open Scope N_scope.

(* parse o encode = identity, for all field values and all filler bytes, for each reply kind *)
Theorem C08_type1_state_reply f0 f1 f2 f3 st pw tl ton au :
  length f0 = 75%nat -> length f1 = 1%nat -> length f2 = 8%nat ->
  (st = 0 \/ st = 1) -> pw < 65536 -> tl < 86400 -> ton < 86400 -> au < 86400 ->
  parse_state_reply (encode_state_reply f0 f1 f2 f3 st pw tl ton au) =
  Ok {| sf_state := st; sf_time_left := fmt_hhmmss tl; sf_time_on := fmt_hhmmss ton;
        sf_auto := fmt_hhmmss au; sf_power := pw |}.
Proof.
  intros L0 L1 L2 Hst Hpw Htl Hton Hau. unfold parse_state_reply, encode_state_reply.
  set (segs := state_segs f0 f1 f2 f3 st pw tl ton au).
  assert (Hw : widths segs [75; 1; 1; 4; 8; 4; 4; 4; length f3]%nat).
  { unfold widths, segs, state_segs. cbn [map]. rewrite L0, L1, L2. reflexivity. }
  rewrite (hex_field Hw 1 150 152 eq_refl).
  rewrite (get_time_field _ _ _ tl (hex_field Hw 5 178 186 eq_refl) Htl).
  rewrite (get_time_field _ _ _ ton (hex_field Hw 6 186 194 eq_refl) Hton).
  rewrite (get_time_field _ _ _ au (hex_field Hw 7 194 202 eq_refl) Hau).
  rewrite (hex_field Hw 3 154 162 eq_refl). unfold int16r. rewrite int16_swap2_le16_pad by exact Hpw.
  destruct Hst as [-> | ->]; reflexivity.
Qed.
Print Assumptions C08_type1_state_reply.

Theorem C08_shutter_reply f0 f1 f2 pos dname dvalue ddisp :
  length f0 = 76%nat -> length f1 = 1%nat -> pos < 256 -> In (dname, dvalue, ddisp) shutter_directions ->
  parse_shutter_reply (encode_shutter_reply f0 f1 f2 pos (unhex_str dvalue)) =
  Ok {| sh_position := pos; sh_direction := dname |}.
Proof.
  intros L0 L1 Hp Hin. destruct (spelt_member _ _ _ _ _ directions_spelt Hin) as [Hhex Hlen].
  unfold parse_shutter_reply, encode_shutter_reply.
  set (segs := shutter_reply_segs f0 f1 f2 pos (unhex_str dvalue)).
  assert (Hw : widths segs [76; 1; 1; 2; length f2]%nat).
  { unfold widths, segs, shutter_reply_segs. cbn [map]. rewrite L0, L1, Hlen. reflexivity. }
  rewrite (hex_field Hw 3 156 160 eq_refl), Hhex, (lookup_member _ _ _ _ directions_find Hin).
  rewrite (hex_field Hw 1 152 154 eq_refl). unfold int16r. rewrite int16_byte by exact Hp. reflexivity.
Qed.
Print Assumptions C08_shutter_reply.

Theorem C08_thermostat_reply f0 f1 f2 temp10 (on : bool) mname mvalue mdisp target fname fvalue fdisp fan (swing : bool) remote :
  length f0 = 76%nat -> length f1 = 2%nat -> temp10 < 65536 -> target < 256 -> fan < 16 ->
  In (mname, mvalue, mdisp) thermostat_modes -> In (fname, fvalue, fdisp) fan_levels -> [hexdigit fan] = s2l fvalue ->
  (length remote <= 8)%nat -> utf8_valid remote = true -> last remote 1 <> 0 ->
  parse_thermostat_reply
    (encode_thermostat_reply f0 f1 f2 temp10 (if on then 1 else 0) (match unhex_str mvalue with [m] => m | _ => 0 end) target
       (16 * fan + (if swing then 1 else 0)) (pad0 8 remote)) =
  Ok {| tf_on := on; tf_mode := mname; tf_fan := fname; tf_temp10 := temp10; tf_target := target;
        tf_swing_on := swing; tf_remote := remote |}.
Proof.
  intros L0 L1 Ht Htg Hfan Hm Hf Hfv Lr Vr Nr.
  destruct (spelt_member _ _ _ _ _ modes_spelt Hm) as [Mhex Mlen].
  destruct (unhex_str mvalue) as [|mb [|? ?]]; try discriminate.
  unfold parse_thermostat_reply, encode_thermostat_reply.
  set (segs := thermostat_reply_segs f0 f1 f2 temp10 (if on then 1 else 0) mb target (16 * fan + (if swing then 1 else 0)) (pad0 8 remote)).
  assert (Hw : widths segs [76; 2; 1; 1; 1; 1; 2; 8; length f2]%nat).
  { unfold widths, segs, thermostat_reply_segs. cbn [map]. rewrite (pad0_length 8 remote Lr), L0, L1. reflexivity. }
  rewrite (hex_field Hw 2 156 158 eq_refl), (hex_field Hw 3 158 160 eq_refl), Mhex, (lookup_member _ _ _ _ modes_find Hm).
  (* characters 162 and 163 are the two nibbles of byte 81; the list is written out because unification, left to find it,
     unfolds skipn on the numerals *)
  rewrite <- (pyslice_pyslice 0 1 162 164 162 163 (hexlify (concat segs)) eq_refl eq_refl).
  rewrite <- (pyslice_pyslice 1 2 162 164 163 164 (hexlify (concat segs)) eq_refl eq_refl).
  rewrite (hex_field Hw 5 162 164 eq_refl), hexlify_nibbles by (destruct swing; reflexivity).
  change (pyslice 0 1 [hexdigit fan; hexdigit (if swing then 1 else 0)]) with [hexdigit fan].
  change (pyslice 1 2 [hexdigit fan; hexdigit (if swing then 1 else 0)]) with [hexdigit (if swing then 1 else 0)].
  rewrite Hfv, (lookup_member _ _ _ _ fans_find Hf). unfold int16r.
  rewrite (le16_chars _ 152 154 156 temp10 eq_refl eq_refl (hex_field Hw 1 152 156 eq_refl) Ht).
  rewrite (hex_field Hw 4 160 162 eq_refl), int16_byte by exact Htg.
  rewrite (slice_field Hw 7 84 92 eq_refl). unfold pad0. rewrite utf8_valid_pad, rstrip0_pad by assumption.
  destruct on, swing; reflexivity.
Qed.
Print Assumptions C08_thermostat_reply.

Theorem C08_login_reply f0 session f1 : length f0 = 8%nat -> length session = 4%nat ->
  login_session (encode_login_reply f0 session f1) = hexlify session.
Proof.
  intros L0 L1. assert (Hw : widths [f0; session; f1] [8; 4; length f1]%nat) by (unfold widths; cbn [map]; rewrite L0, L1; reflexivity).
  unfold login_session, encode_login_reply. rewrite <- (app_nil_r f1). exact (hex_field Hw 1 16 24 eq_refl).
Qed.
Print Assumptions C08_login_reply.

(* amps = watts / 220 to one decimal, for every 16-bit wattage (bit-exact float model) *)
Theorem C08_amps w : (w < 65536)%N -> (Z.abs (Z.of_N w - 22 * amps_tenths (Z.of_N w)) <= 11)%Z.
Proof. exact (amps_ok w). Qed.
Print Assumptions C08_amps.
