(* the API model run on three concrete exchanges, for inspection: nothing is asserted *)
Require Import AS.Base.Prelude AS.Base.Hex AS.Base.Exchange AS.Model.Api.
Definition c0 := {| device_id := s2l "ab1c2d"; device_key := s2l "18" |}.
Definition login_reply : bytes := match unhexlify (s2l "fef02c000400a600a1b2c3d4ff0302110000000000000000") with Some b => b | None => [] end.
Eval vm_compute in
  let '(fs, r) := run (control_device c0 1790000000 (s2l "1") 15) [login_reply; [1]] in
  (map hexlify fs, r).
Eval vm_compute in
  let '(fs, r) := run (get_state c0 1790000000) [[]] in (length fs, match r with Ok _ => 0 | Exc RuntimeError => 1 | Exc _ => 2 end)%nat.
Eval vm_compute in
  let '(fs, r) := run (stop_shutter c0 1790000000) [login_reply; [1]] in (map (fun f => pyslice 0 16 (hexlify f)) fs).
