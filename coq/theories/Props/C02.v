(* C02 — Each operation's frame encodes exactly that operation and the caller's arguments *)
Require Import AS.Base.Prelude AS.Base.Hex AS.Base.Template AS.Gen.Extracted AS.Spec.Frame AS.Spec.FrameLayout
  AS.Spec.FrameSpec AS.Model.DeviceTools AS.Model.Api AS.Proofs.LayoutMatch AS.Proofs.FrameAll AS.Proofs.SpecOps
  AS.Model.ScheduleTools AS.Proofs.CreateExact AS.Proofs.OpsFrames AS.Proofs.ClockStrings.
Require Import ZifyBool.
Local Open Scope N_scope.

(* The Spec (Spec/FrameLayout.v, Spec/FrameSpec.v): an independently written byte layout per operation and the declared
   meaning of each argument; spec_<operation> gives the frame that must be written (Frame), says that the call must
   raise having written the login frame only (MustRaise), or leaves the input alone (Unspecified).
   outcome_is x v: x = ([login frame of the Spec; command frame of the Spec], device answer) when v = Frame,
   x = ([login frame], exception) when v = MustRaise.
   Premises everywhere: a 3-byte device id, a 1-byte key, a clock reading below 2^32, a login reply of at least 12 bytes. *)

Section C02.
Variables (idb : bytes) (keyb : N) (now : N) (r0 : bytes) (rest : list bytes).
Hypothesis Lid : length idb = 3%nat.
Hypothesis Hid : Forall (fun b => b < 256) idb.
Hypothesis Hkey : keyb < 256.
Hypothesis Hnow : now < 4294967296.
Hypothesis Hr0 : Forall (fun b => b < 256) r0.
Hypothesis Lr0 : (12 <= length r0)%nat.
Let c := cfg_of idb keyb.
Let h := hdr_args (pyslice 8 12 r0) now idb.

(* on/off flag and timer seconds = 60 x minutes, zero when no timer; a timer beyond 32 bits raises *)
Theorem C02_control_device (on : bool) minutes :
  outcome_is idb keyb now rest (Exchange.run (control_device_op false c now (s2l (if on then "1" else "0")) minutes) (r0 :: rest))
             (spec_control h on minutes).
Proof.
  apply (type1_outcome Lid Hid Hkey Hnow Hr0 Lr0 M_control I_control (control_enc on minutes)).
  unfold spec_control, minutes_to_hexadecimal_seconds. replace (nibble (if on then 49 else 48)) with (AStr (s2l (if on then "1" else "0"))) by (destruct on; reflexivity).
  destruct (0 <? minutes)%Z; [|reflexivity].
  destruct (N.ltb_spec (Z.to_N minutes * 60) 4294967296) as [Hlt|Hge].
  - apply N.leb_gt in Hlt. rewrite Hlt. reflexivity.
  - apply N.leb_le in Hge. rewrite Hge. reflexivity.
Qed.

(* auto-shutdown seconds: whole minutes within 1 h .. 23 h 59 m, anything else raises *)
Theorem C02_set_auto_shutdown secs :
  outcome_is idb keyb now rest (Exchange.run (set_auto_shutdown_op false c now secs) (r0 :: rest)) (spec_auto_shutdown h secs).
Proof.
  apply (type1_outcome Lid Hid Hkey Hnow Hr0 Lr0 M_auto_off I_auto_off (enc_ok_one _ _ (timedelta_enc secs))).
  unfold spec_auto_shutdown, timedelta_to_hexadecimal_seconds.
  (* the code floors to whole minutes first: 3600 and 86340 = 60 * 1439 are multiples of 60, so the bounds on the floor are
     the Spec's bounds on the seconds *)
  replace ((3599 <? secs / 60 * 60) && (secs / 60 * 60 <? 86341))%Z%bool with ((3600 <=? secs) && (secs <=? 86399))%Z%bool
    by (zify; Z.to_euclidean_division_equations; lia).
  destruct (_ && _)%bool; reflexivity.
Qed.

(* the name as UTF-8 zero-padded to exactly 32 bytes; fewer than 2 bytes or more than 32 bytes raise *)
Theorem C02_set_device_name name : Forall (fun b => b < 256) name ->
  outcome_is idb keyb now rest (Exchange.run (set_device_name_op false c now name) (r0 :: rest)) (spec_set_name h name).
Proof.
  intros Hb. unfold spec_set_name. destruct (Utf8.utf8_valid name); cbn [negb]; [|apply (outcome_unspecified Lid Hid Hkey Hnow)].
  pose proof (fun v => type1_outcome (rest := rest) (v := v) Lid Hid Hkey Hnow Hr0 Lr0 M_set_name I_set_name
                          (enc_ok_one _ _ (fun a => name_enc name a Hb))) as Henc.
  unfold string_to_hexadecimale_device_name in Henc.
  pose proof (filter_length_le (fun b => negb (Utf8.cont b)) name) as Hcp. fold (cp_len name) in Hcp.
  destruct (Nat.ltb_spec 32 (length name)) as [Hbig|Hle].
  - apply Henc. replace ((1 <? length name) && (length name <? 33))%nat with false by lia. reflexivity.
  - destruct (Nat.leb_spec 2 (cp_len name)) as [Hcp2|Hcp1].
    + apply Henc. replace ((1 <? length name) && (length name <? 33))%nat with true by lia.
      cbn [bind]. rewrite <- (hexlify_repeat 0), <- hexlify_app. reflexivity.
    + destruct (Nat.ltb_spec (length name) 2) as [Hshort|Hlong]; [|apply (outcome_unspecified Lid Hid Hkey Hnow)].
      apply Henc. replace ((1 <? length name) && (length name <? 33))%nat with false by lia. reflexivity.
Qed.

Theorem C02_get_schedules :
  outcome_is idb keyb now rest (Exchange.run (get_schedules_op false c now) (r0 :: rest)) (frame_of L_get_schedules h).
Proof.
  apply (type1_outcome Lid Hid Hkey Hnow Hr0 Lr0 M_get_schedules I_get_schedules (enc_ok_ret [] []%nat (Forall2_nil _))).
  reflexivity.
Qed.

(* schedule slot id '0'..'7' *)
Theorem C02_delete_schedule slot :
  outcome_is idb keyb now rest (Exchange.run (delete_schedule_op false c now slot) (r0 :: rest)) (spec_delete h slot).
Proof.
  unfold spec_delete. destruct slot as [|ch [|? ?]]; try apply (outcome_unspecified Lid Hid Hkey Hnow).
  destruct ((48 <=? ch) && (ch <=? 55)) eqn:E; [|apply (outcome_unspecified Lid Hid Hkey Hnow)].
  apply (type1_outcome Lid Hid Hkey Hnow Hr0 Lr0 M_delete I_delete (extra := Ok [AStr [ch]])); [|reflexivity].
  apply (enc_ok_ret [[ch]] [1]%nat). constructor; [|constructor]. split; [|reflexivity]. constructor; [|constructor]. unfold is_hexchar, nib_of_char.
  replace ((48 <=? ch) && (ch <=? 57)) with true by lia. reflexivity.
Qed.

Theorem C02_stop :
  outcome_is idb keyb now rest (Exchange.run (stop_op false c now) (r0 :: rest)) (frame_of L_runner_stop h).
Proof.
  apply (type2_outcome Lid Hid Hkey Hnow Hr0 Lr0 M_runner_stop I_stop (Forall2_nil _)).
  reflexivity.
Qed.

(* shutter position 0-100 *)
Theorem C02_set_position p :
  outcome_is idb keyb now rest (Exchange.run (set_position_op false c now p) (r0 :: rest)) (spec_set_position h p).
Proof.
  unfold spec_set_position, set_position_op. destruct (N.leb_spec p 100) as [Hp|Hp]; [|apply (outcome_unspecified Lid Hid Hkey Hnow)].
  rewrite (fmt_02x_byte p) by lia.
  apply (type2_outcome Lid Hid Hkey Hnow Hr0 Lr0 M_set_position I_set_position (rs := [hexbyte p])); [|reflexivity].
  constructor; [apply hexbyte_hexs; lia|constructor].
Qed.

(* create_schedule with [base] = epoch second of today's local midnight (zones are C11's subject): both clock strings in
   H:MM / HH:MM form (else it raises), the days as a set or a duplicate-free sequence (duplicates raise) encoded as their
   bit mask (0 for none), start and end as LE32 of base + 60 x minutes (outside 32 bits raises), in the 11-byte record
   01 mask 01 start end placed in the create frame *)
Theorem C02_create_schedule base st en d l : days_list d l -> (forall x, In x l -> (x < n_days)%nat) ->
  outcome_is idb keyb now rest (Exchange.run (create_schedule_op false c now base st en d) (r0 :: rest)) (spec_create h base st en l).
Proof.
  intros Hd Hb. unfold create_schedule_op.
  assert (Hok : days_ok d) by (destruct Hd as [->|[-> Hn]]; [exact Hb|split; [exact Hn|exact Hb]]).
  apply (type1_outcome Lid Hid Hkey Hnow Hr0 Lr0 M_create I_create (create_enc false base st en d Hok)).
  unfold spec_create. destruct (clock_minutes st) as [vs|] eqn:Cs; [|destruct (time_enc_none base st Cs) as [e ->]; reflexivity].
  rewrite (time_enc_some base st vs Cs). destruct (clock_minutes en) as [ve|] eqn:Ce.
  2:{ destruct (time_enc_none base en Ce) as [e ->]. destruct (stamp _); reflexivity. }
  rewrite (time_enc_some base en ve Ce), (days_enc d l Hd Hb). unfold stamp.
  destruct ((0 <=? base + Z.of_N (60 * vs)) && (base + Z.of_N (60 * vs) <? 4294967296))%Z eqn:Rs; cbn [bind andb].
  2:{ destruct (nodup_nat l); reflexivity. }
  destruct ((0 <=? base + Z.of_N (60 * ve)) && (base + Z.of_N (60 * ve) <? 4294967296))%Z eqn:Re; cbn [bind].
  2:{ destruct (nodup_nat l); reflexivity. }
  destruct (nodup_nat l) eqn:En; cbn [negb bind]; [|reflexivity].
  destruct (record_is_spec (mask_of l) (Z.to_N (base + Z.of_N (60 * vs))) (Z.to_N (base + Z.of_N (60 * ve))) (mask_byte l En Hb)) as [recb [Hr Hf]].
  rewrite Hr, Hf. reflexivity.
Qed.
End C02.
Print Assumptions C02_control_device.
Print Assumptions C02_set_auto_shutdown.
Print Assumptions C02_set_device_name.
Print Assumptions C02_get_schedules.
Print Assumptions C02_delete_schedule.
Print Assumptions C02_stop.
Print Assumptions C02_set_position.
Print Assumptions C02_create_schedule.

(* every packet template of the sources, the schedule record included, equals the independently written layout, piece by piece once
   adjacent literals are merged *)
Theorem C02_templates_are_the_layouts :
  matches T_LOGIN_PACKET_TYPE1 L_login1 = true /\ matches T_LOGIN2_PACKET_TYPE2 L_login2 = true /\
  matches T_GET_STATE_PACKET_TYPE1 L_get_state1 = true /\ matches T_GET_STATE_PACKET2_TYPE2 L_get_state2 = true /\
  matches T_SEND_CONTROL_PACKET L_control = true /\ matches T_SET_AUTO_OFF_SET_PACKET L_auto_off = true /\
  matches T_UPDATE_DEVICE_NAME_PACKET L_set_name = true /\ matches T_GET_SCHEDULES_PACKET L_get_schedules = true /\
  matches T_DELETE_SCHEDULE_PACKET L_delete = true /\ matches T_CREATE_SCHEDULE_PACKET L_create = true /\
  matches T_SCHEDULE_CREATE_DATA_FORMAT L_schedule_record = true /\
  matches T_BREEZE_COMMAND_PACKET L_breeze_command = true /\ matches T_BREEZE_UPDATE_STATUS_PACKET L_breeze_status = true /\
  matches T_RUNNER_STOP_COMMAND L_runner_stop = true /\ matches T_RUNNER_SET_POSITION L_set_position = true.
Proof.
  exact (conj M_login1 (conj M_login2 (conj M_get_state1 (conj M_get_state2 (conj M_control (conj M_auto_off
        (conj M_set_name (conj M_get_schedules (conj M_delete (conj M_create (conj M_record (conj M_breeze_command
        (conj M_breeze_status (conj M_runner_stop M_set_position)))))))))))))).
Qed.
Print Assumptions C02_templates_are_the_layouts.

(* the converse, for any template and layout: a well-formed frame that a call site has written is the Spec's frame for the same arguments *)
Theorem C02_written_frame_is_the_layout T L args (fix_len : bool) p p' out bs :
  matches T L = true -> format T args = Ok p ->
  (if fix_len then set_message_length false p else Ok p) = Ok p' ->
  sign_packet_with_crc_key p' = Ok out -> unhexlify out = Some bs -> frame_okb bs = true ->
  (fix_len = true -> pyslice 0 4 p = s2l "fef0") ->
  frame_of L args = Frame bs.
Proof. exact (written_is_spec T L args fix_len p p' out bs). Qed.
Print Assumptions C02_written_frame_is_the_layout.
