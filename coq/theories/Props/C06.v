(* C06 — Only genuine Switcher broadcasts are accepted; anything else is ignored quietly *)
Require Import AS.Base.Prelude AS.Base.Hex AS.Model.Bridge AS.Proofs.BridgeProofs.

Local Open Scope N_scope.
Theorem C06_gate m : wf_bytes m ->
  (is_switcher_originator m = true <->
   firstn 2 m = [254; 240] /\ (length m = 165 \/ length m = 168 \/ length m = 159)%nat).
Proof.
  intros _. apply originator_spec.
Qed.
Print Assumptions C06_gate.

(* whatever fails the gate is ignored: no device, no warning, no exception *)
Theorem C06_ignored lm lt m : is_switcher_originator m = false -> parse_datagram lm lt m = Ignored.
Proof. intros H. unfold parse_datagram. rewrite H. reflexivity. Qed.
Print Assumptions C06_ignored.

(* an accepted frame with an unknown model code: a warning, no device, no exception *)
Theorem C06_unknown_model lm m : wf_bytes m -> is_switcher_originator m = true ->
  dt_by_hex (hexlify (pyslice 74 76 m)) = None -> parse_datagram lm false m = Warned.
Proof.
  intros Hw Ho Hd. unfold parse_datagram. rewrite Hd. rewrite Ho.
  assert (Hl : (139 <= length m)%nat).
  { apply (C06_gate m Hw) in Ho. destruct Ho as [_ [H|[H|H]]]; lia. }
  destruct (power_r_ok (eqs (pyslice 266 268 (hexlify m)) "01") m Hw Hl) as [p ->]. reflexivity.
Qed.
Print Assumptions C06_unknown_model.

