(* C12 — Weekday sets and their one-byte mask are a bijection *)
Require Import AS.Base.Prelude AS.Base.Hex AS.Model.ScheduleTools AS.Proofs.WeekdayProofs.
Open Scope N_scope.

(* encoding a non-empty duplicate-free collection (sequence or set form): two hex digits of the sum,
   which is even, within 2..254, has exactly the members' bits, and decodes to exactly that set *)
Theorem C12_mask_facts : forall l, l <> [] -> NoDup l -> (forall d, In d l -> (d < n_days)%nat) ->
  let m := sum_bits l in
  fmt_02x m = hexbyte m /\ m < 256 /\ N.even m = true /\ 2 <= m <= 254 /\
  (forall d, (d < n_days)%nat -> N.testbit m (N.of_nat d + 1) = memb l d) /\
  bit_summary_to_days m = Ok (filter (memb l) all_days).
Proof. exact core_facts. Qed.
Print Assumptions C12_mask_facts.
Theorem C12_encode_seq : forall l, l <> [] -> NoDup l -> (forall d, In d l -> (d < n_days)%nat) ->
  weekdays_to_hexadecimal (ASeq l) = Ok (hexbyte (sum_bits l)).
Proof. exact weekdays_encode_seq. Qed.
Print Assumptions C12_encode_seq.
Theorem C12_encode_set : forall l, l <> [] -> NoDup l -> (forall d, In d l -> (d < n_days)%nat) ->
  weekdays_to_hexadecimal (ASet l) = Ok (hexbyte (sum_bits l)).
Proof. exact weekdays_encode_set. Qed.
Print Assumptions C12_encode_set.
Theorem C12_reject_duplicates : forall l, l <> [] -> ~ NoDup l -> weekdays_to_hexadecimal (ASeq l) = Exc ValueError.
Proof. exact weekdays_reject_dup. Qed.
Print Assumptions C12_reject_duplicates.
Theorem C12_reject_empty : weekdays_to_hexadecimal (ASeq []) = Exc ValueError /\ weekdays_to_hexadecimal (ASet []) = Exc ValueError.
Proof. split; reflexivity. Qed.
Print Assumptions C12_reject_empty.
Theorem C12_reject_mask : forall m, m < 2 \/ 254 < m -> bit_summary_to_days m = Exc ValueError.
Proof.
  intros m H. unfold bit_summary_to_days.
  destruct (N.ltb_spec 1 m), (N.ltb_spec m 255); cbn [andb]; try reflexivity. lia.
Qed.
Print Assumptions C12_reject_mask.
