(* C04 — The signature is the protocol's double CRC-16 for every byte string *)
Require Import AS.Base.Prelude AS.Base.Hex AS.Base.Crc AS.Model.DeviceTools AS.Spec.Sign AS.Proofs.SignProofs.

Theorem C04_sign : forall p bs, unhexlify p = Some bs ->
  sign_packet_with_crc_key p = Ok (p ++ hexlify (sig bs)).
Proof. exact sign_spec. Qed.
Print Assumptions C04_sign.

Theorem C04_reject : forall p, unhexlify p = None ->
  exists e, sign_packet_with_crc_key p = Exc e /\ is_value_error e = true.
Proof. intros p H. unfold sign_packet_with_crc_key. rewrite H. exists BinasciiError. split; reflexivity. Qed.
Print Assumptions C04_reject.

Theorem C04_crc_is_bit_serial : forall bs init, (init < 65536)%N -> Forall (fun b => (b < 256)%N) bs ->
  crc_hqx bs init = crc_spec init bs.
Proof. intros bs init _ _. apply crc_hqx_is_spec. Qed.
Print Assumptions C04_crc_is_bit_serial.

(* non-vacuity: a two-byte text and the four signature bytes it gets *)
Example C04_example :
  sign_packet_with_crc_key (s2l "fef0") = Ok (s2l "fef0e1e84af5").
Proof. vm_compute. reflexivity. Qed.
