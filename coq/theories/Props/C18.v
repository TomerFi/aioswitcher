(* C18 — The TCP client is connected exactly between connect and disconnect *)
Require Import AS.Base.Prelude AS.Model.Lifecycle AS.Proofs.LifecycleProofs.

Theorem C18_lifecycle acts : let s := crun acts in
  (* after a disconnect (explicit or by leaving the context, also through an exception) the client is
     disconnected and the device holds no open connection from it *)
  (connected (c_disconnect s) = false /\ dev_open (c_disconnect s) = 0%nat) /\
  (forall l b, let s' := fst (cstep s (CWith l b)) in l = true -> connected s' = false /\ dev_open s' = 0%nat) /\
  (* a successful connect connects; a refused one raises and changes nothing *)
  (connected (fst (c_connect true s)) = true /\ dev_open (fst (c_connect true s)) = 1%nat) /\
  (c_connect false s = (s, CRaised)) /\
  (* disconnect twice is the same as once *)
  c_disconnect (c_disconnect s) = c_disconnect s.
Proof.
  intros s. pose proof (crun_J acts) as H.
  pose proof (J_disconnect _ _ _ H) as (Hc1 & _ & Hd1 & _). pose proof (J_connect _ _ _ H) as (Hc3 & _ & Hd3 & _).
  split; [auto|]. split; [|split; [auto|split; [reflexivity|apply c_disconnect_idem]]].
  intros l b s' ->. destruct (J_step _ _ _ (CWith true b) H) as (Hc & _ & Hd & _). auto.
Qed.
Print Assumptions C18_lifecycle.


(* the same as a refinement of the property's own reading of a history (Spec/Client.v): over every action sequence the
   client is connected exactly when the last successful connect has not been followed by a disconnect (explicit, or by
   leaving an async context, also through an exception); the device then holds exactly one open connection of this client,
   otherwise none; and every connection the device ever accepted and no longer holds was seen by it as end-of-stream *)
Require Import AS.Spec.Client.
Theorem C18_connected_exactly_between acts :
  connected (crun acts) = spec_connected acts /\
  dev_open (crun acts) = (if spec_connected acts then 1 else 0)%nat /\
  (dev_open (crun acts) + dev_eofs (crun acts) = spec_accepted acts)%nat.
Proof. destruct (crun_J acts) as (Hc & _ & Hd & Hn). auto. Qed.
Print Assumptions C18_connected_exactly_between.

(* the reading is not constant: a history on which it says connected, and one on which it says disconnected after three
   accepted connections *)
Example C18_history_example :
  spec_connected [CConnect false; CConnect true; COperation true] = true /\
  spec_connected [CConnect true; CConnect true; CWith true true; CWith false false] = false /\
  spec_accepted [CConnect true; CConnect true; CWith true true; CWith false false] = 3%nat.
Proof. vm_compute. repeat split. Qed.
