(* C10 — Listed schedules decode exactly; a created schedule reads back unchanged *)
Require Import AS.Base.Prelude AS.Base.Hex AS.Base.Dec AS.Model.ScheduleTools AS.Model.ScheduleParser AS.Spec.Encoders AS.Proofs.ScheduleParserProofs AS.Proofs.ScheduleListProofs.

(* one whole record, every zone table: id, recurrence, day set, local start and end are what the record holds *)
Local Open Scope N_scope.
Theorem C10_record lu ln z now id en mask st s e t0 t1 t2 t3 ds :
  id < 256 -> mask < 256 -> s < 4294967296 -> e < 4294967296 ->
  (mask = 0 /\ ds = [] \/ mask <> 0 /\ bit_summary_to_days mask = Ok ds) ->
  exists dur disp,
    parse_schedule lu ln z now (hexlify (record id en mask st s e t0 t1 t2 t3)) =
    match calc_duration (fmt_hm z s) (fmt_hm z e), pretty_next_run lu ln z now (fmt_hm z s) ds with
    | Ok d, Ok p => Ok {| sc_id := str_N id; sc_recurring := negb (mask =? 0); sc_days := ds;
                          sc_start := fmt_hm z s; sc_end := fmt_hm z e; sc_duration := d; sc_display := p |}
    | Exc x, _ => Exc x
    | _, Exc x => Exc x
    end /\ dur = calc_duration (fmt_hm z s) (fmt_hm z e) /\ disp = pretty_next_run lu ln z now (fmt_hm z s) ds.
Proof. exact (parse_record lu ln z now id en mask st s e t0 t1 t2 t3 ds). Qed.
Print Assumptions C10_record.

(* chunking the region of whole records gives back the records *)
Theorem C10_chunks : forall (recs : list bytes) fuel, (forall r, In r recs -> length r = 16%nat) ->
  (length recs <= fuel)%nat ->
  chunks fuel 32 (hexlify (concat recs)) = map hexlify recs.
Proof. exact (chunks_records). Qed.
Print Assumptions C10_chunks.

Theorem C10_region (hdr body tail : bytes) : length hdr = 45%nat -> length tail = 4%nat ->
  let hex := hexlify (hdr ++ body ++ tail) in
  pyslice 90 (length hex - 8) hex = hexlify body.
Proof. exact (schedule_region hdr body tail). Qed.
Print Assumptions C10_region.


(* list level, every zone table: a reply holding whole records is parsed record by record, the first record of a slot id wins *)
Theorem C10_list lu ln z now hdr recs tail :
  length hdr = 45%nat -> length tail = 4%nat -> (forall r, In r recs -> length r = 16%nat) ->
  get_schedules lu ln z now (encode_schedules_reply hdr recs tail) = parse_all lu ln z now recs.
Proof.
  intros Hh Ht Hr. unfold get_schedules, encode_schedules_reply.
  rewrite (schedule_region hdr (concat recs) tail Hh Ht).
  rewrite chunks_records; [| exact Hr | rewrite hexlify_length, (length_concat 16 recs Hr); unfold bytes; lia].
  unfold parse_all. clear Hr. generalize (@Ok (list schedule) []). induction recs as [|r recs IH]; intros acc; [reflexivity|].
  cbn [map fold_left]. rewrite IH. unfold add_first.
  destruct acc as [l|e]; cbn [bind]; [|reflexivity]. destruct (parse_schedule lu ln z now (hexlify r)) as [a|e]; cbn [bind]; [|reflexivity].
  destruct (existsb _ l); reflexivity.
Qed.
Print Assumptions C10_list.
Theorem C10_one_schedule_per_slot lu ln z now recs l : parse_all lu ln z now recs = Ok l -> NoDup (map sc_id l).
Proof.
  apply (parse_all_inv (fun l => NoDup (map sc_id l))); [constructor|]. intros l0 s. apply add_first_ids.
Qed.
Print Assumptions C10_one_schedule_per_slot.
Theorem C10_first_record_wins lu ln z now recs parsed :
  Forall2 (fun r s => parse_schedule lu ln z now (hexlify r) = Ok s) recs parsed ->
  parse_all lu ln z now recs = Ok (first_per_id [] parsed).
Proof.
  unfold parse_all. intros H. generalize (@nil schedule).
  induction H as [|r s recs parsed Hrs _ IH]; intros seen; [reflexivity|].
  cbn [fold_left first_per_id bind]. rewrite Hrs. apply IH.
Qed.
Print Assumptions C10_first_record_wins.
(* every whole record with a day mask of 0 or a decodable one parses (duration and display never fail on decoded clock texts) to
   its id, recurrence flag, day set and local start / end *)
Theorem C10_record_always_parses z now id en mask st s e t0 t1 t2 t3 ds :
  id < 256 -> mask < 256 -> s < 4294967296 -> e < 4294967296 ->
  (mask = 0 /\ ds = [] \/ mask <> 0 /\ bit_summary_to_days mask = Ok ds) ->
  exists dur disp, parse_schedule false false z now (hexlify (record id en mask st s e t0 t1 t2 t3)) =
    Ok {| sc_id := str_N id; sc_recurring := negb (mask =? 0); sc_days := ds; sc_start := fmt_hm z s; sc_end := fmt_hm z e;
          sc_duration := dur; sc_display := disp |}.
Proof. exact (record_parses z now id en mask st s e t0 t1 t2 t3 ds). Qed.
Print Assumptions C10_record_always_parses.

(* create / read back, every zone table, every instant: for clock times that exist today and a non-empty duplicate-free day
   collection, what create_schedule's encoders produce (C11's instants for start and end, C12's mask for the days - the content of
   the record C02_create_schedule puts on the wire) is read back, from a record holding these three values in any slot and at any
   later moment, as exactly that day set and those HH:MM times *)
Require Import AS.Model.Clock AS.Proofs.WeekdayProofs AS.Proofs.ReadBack.
Theorem C10_created_schedule_reads_back z now later hs he l id en st t0 t1 t2 t3 :
  (hs < 1440)%N -> (he < 1440)%N -> exists_today z now hs -> exists_today z now he ->
  l <> [] -> NoDup l -> (forall d, In d l -> (d < n_days)%nat) -> (id < 256)%N ->
  let ts := Z.to_N (instant z now hs) in let te := Z.to_N (instant z now he) in
  time_to_hexadecimal_timestamp_z false z now (hhmm hs) = Ok (hexlify (le32 ts)) /\
  time_to_hexadecimal_timestamp_z false z now (hhmm he) = Ok (hexlify (le32 te)) /\
  weekdays_to_hexadecimal (ASet l) = Ok (hexbyte (sum_bits l)) /\ weekdays_to_hexadecimal (ASeq l) = Ok (hexbyte (sum_bits l)) /\
  exists dur disp,
    parse_schedule false false z later (hexlify (record id en (sum_bits l) st ts te t0 t1 t2 t3)) =
    Ok {| sc_id := str_N id; sc_recurring := true; sc_days := filter (memb l) all_days;
          sc_start := hhmm hs; sc_end := hhmm he; sc_duration := dur; sc_display := disp |}.
Proof.
  intros Hhs Hhe Xs Xe Hne Hnd Hin Hid.
  destruct (instant_reads_back z now hs Hhs Xs) as (Hts & Es & Ds). destruct (instant_reads_back z now he Hhe Xe) as (Hte & Ee & De).
  destruct (core_facts l Hne Hnd Hin) as (_ & Hm256 & _ & Hrange & _ & Hdec).
  split; [exact Es|]. split; [exact Ee|]. split; [apply weekdays_encode_set; assumption|]. split; [apply weekdays_encode_seq; assumption|].
  destruct (record_parses z later id en (sum_bits l) st _ _ t0 t1 t2 t3 (filter (memb l) all_days) Hid Hm256 Hts Hte) as [dur [disp Hp]].
  { right. split; [lia|exact Hdec]. }
  exists dur, disp. rewrite Hp, Ds, De, (proj2 (N.eqb_neq (sum_bits l) 0)) by lia. reflexivity.
Qed.
Print Assumptions C10_created_schedule_reads_back.
