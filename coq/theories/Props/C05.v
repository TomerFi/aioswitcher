(* C05 — A status broadcast is decoded into exactly the device the sender described *)
Require Import AS.Base.Prelude AS.Base.Hex AS.Base.Dec AS.Base.Utf8 AS.Base.Float AS.Gen.Extracted AS.Model.Bridge AS.Spec.Encoders AS.Proofs.BridgeProofs AS.Proofs.BroadcastProofs AS.Proofs.FloatProofs AS.Base.Layout AS.Proofs.MessagesProofs.

(* thermostat family (168 bytes): parse o encode = identity for every field value and every filler byte *)
Local Open Scope N_scope.
Theorem C05_thermostat_broadcast (f1 id f2 : bytes) (key : N) (f3 name f4 ip mac f5 : bytes) (temp10 : N) (on : bool)
    (mode_name mode_value mode_disp : string) (mode_byte target : N) (fan_name fan_value fan_disp : string)
    (fan : N) (swing : bool) (f6 remote f7 : bytes) :
  breeze_wf f1 id f2 f3 f4 ip mac f5 f6 remote f7 name ->
  wf_bytes (concat (breeze_segs f1 id f2 key f3 (name ++ repeat 0 (32 - length name)) f4 ip mac f5 temp10
                      (if on then 1 else 0) mode_byte target (16 * fan + (if swing then 1 else 0)) f6 remote f7)) ->
  temp10 < 65536 -> target < 256 -> fan < 16 ->
  In (mode_name, mode_value, mode_disp) thermostat_modes -> hexlify [mode_byte] = s2l mode_value -> mode_byte < 256 ->
  In (fan_name, fan_value, fan_disp) fan_levels -> [hexdigit fan] = s2l fan_value ->
  parse_datagram false false
    (concat (breeze_segs f1 id f2 key f3 (name ++ repeat 0 (32 - length name)) f4 ip mac f5 temp10
               (if on then 1 else 0) mode_byte target (16 * fan + (if swing then 1 else 0)) f6 remote f7)) =
  Delivered (DThermostat "BREEZE" on (hexlify id) (hexlify [key]) (dotted ip) (mac_of mac) name mode_name
               temp10 target fan_name swing remote).
Proof. exact (breeze_roundtrip f1 id f2 key f3 name f4 ip mac f5 temp10 on mode_name mode_value mode_disp mode_byte target fan_name fan_value fan_disp fan swing f6 remote f7). Qed.
Print Assumptions C05_thermostat_broadcast.

(* amps = watts / 220 to one decimal, for every 16-bit wattage (bit-exact float model) *)
Local Open Scope Z_scope.
Theorem C05_amps w : (w < 65536)%N -> Z.abs (Z.of_N w - 22 * amps_tenths (Z.of_N w)) <= 11.
Proof. exact (amps_ok w). Qed.
Print Assumptions C05_amps.
Local Close Scope Z_scope.

(* water heaters (5 types) and the power plug (165 bytes), for an arbitrary state byte: the device is ON iff the byte is 01,
   and a device that is not ON may carry anything (any 32-bit number) in its countdown field: power, current and remaining
   time are reported as zero *)
Theorem C05_type1_any_state_byte : forall (f1 id f2 : bytes) (key : N) (f3 name ip mac f5 : bytes) (stb : N) (f6 : bytes) (power : N)
    (f7a f7b : bytes) (remaining : N) (f8 : bytes) (auto : N) (f9 : bytes) (tname tvalue thex : string) (proto : N) (cat : string),
  In (tname, tvalue, thex, proto, cat) device_types ->
  length f1 = 16%nat -> length id = 3%nat -> length f2 = 19%nat -> length f3 = 1%nat -> length ip = 4%nat -> length mac = 6%nat ->
  length f5 = 47%nat -> length f6 = 1%nat -> length f7a = 2%nat -> length f7b = 8%nat -> length f8 = 4%nat -> length f9 = 6%nat ->
  (length name <= 32)%nat -> utf8_valid name = true -> last name 1 <> 0 ->
  stb < 256 -> power < 65536 -> ((stb =? 1) = true -> remaining < 86400) -> auto < 86400 ->
  wf_bytes (concat (type1_segs f1 id f2 key f3 (pad0 32 name) (unhex_str thex) ip mac f5 stb f6 power
                      (f7a ++ f7b) remaining f8 auto f9)) ->
  cat = "WATER_HEATER"%string \/ cat = "POWER_PLUG"%string ->
  let on := stb =? 1 in
  parse_datagram false false
    (concat (type1_segs f1 id f2 key f3 (pad0 32 name) (unhex_str thex) ip mac f5 stb f6 power
               (f7a ++ f7b) remaining f8 auto f9)) =
  Delivered
    (if String.eqb cat "WATER_HEATER"
     then DWaterHeater tname on (hexlify id) (hexlify [key]) (dotted ip) (mac_of mac) name (if on then power else 0)
            (if on then fmt_hhmmss remaining else s2l "00:00:00") (fmt_hhmmss auto)
     else DPowerPlug tname on (hexlify id) (hexlify [key]) (dotted ip) (mac_of mac) name (if on then power else 0)).
Proof.
  intros f1 id f2 key f3 name ip mac f5 stb f6 power f7a f7b remaining f8 auto f9 tname tvalue thex proto cat
    Hrow L1 Lid L2 L3 Lip Lmac L5 L6 L7a L7b L8 L9 Lname Vname Nname Hstb Hpower Hrem Hauto _ Hcat on.
  set (segs := type1_segs f1 id f2 key f3 (pad0 32 name) (unhex_str thex) ip mac f5 stb f6 power (f7a ++ f7b)
                 remaining f8 auto f9).
  destruct (device_type_row _ _ _ _ _ Hrow) as (Lm & Mrow & Hbz).
  assert (Hw : widths segs [2; 16; 3; 19; 1; 1; 32; 2; 4; 6; 47; 1; 1; 2; 10; 4; 4; 4; 6]%nat).
  { unfold widths, segs, type1_segs. cbn [map]. rewrite app_length, (pad0_length 32 name Lname), Lm, L1, Lid, L2, L3, Lip, Lmac, L5, L6, L7a, L7b, L8, L9. reflexivity. }
  assert (Horig : is_switcher_originator (concat segs) = true).
  { apply originator_intro; [reflexivity|left; exact (length_layout _ _ Hw)]. }
  (* the table row first: it selects the branch of the family, so that every later step works on that branch and not on
     the whole parser (here two branches are left, the shutter's and the thermostat's go) *)
  unfold parse_datagram. rewrite (slice_field Hw 7 74 76 eq_refl), Mrow.
  replace (String.eqb cat "SHUTTER") with false by (destruct Hcat as [-> | ->]; reflexivity).
  rewrite Hbz. replace (String.eqb cat "THERMOSTAT") with false by (destruct Hcat as [-> | ->]; reflexivity).
  rewrite Horig.
  (* the power is the first two of the four bytes read at 135 *)
  rewrite (hex_field Hw 11 266 268 eq_refl), (state_byte_on stb Hstb). fold on.
  rewrite (le16_field _ 270 274 278 power eq_refl ltac:(lia) (hex_field Hw 13 270 274 eq_refl) Hpower).
  replace (if on then Ok power else Ok 0) with (Ok (A := N) (if on then power else 0)) by (destruct on; reflexivity).
  rewrite (slice_field Hw 6 42 74 eq_refl). unfold pad0. rewrite decode_name by assumption.
  rewrite (hex_field Hw 2 36 42 eq_refl), (hex_field Hw 4 80 82 eq_refl), (slice_field Hw 8 76 80 eq_refl), (slice_field Hw 9 80 86 eq_refl).
  rewrite (le_time_field _ 310 auto (hex_field Hw 17 310 318 eq_refl) Hauto).
  destruct Hcat as [-> | ->]; simpl (String.eqb _ _); cbv iota; [|reflexivity].
  destruct on eqn:Eon; [|reflexivity].
  rewrite (le_time_field _ 294 remaining (hex_field Hw 15 294 302 eq_refl) (Hrem Eon)). reflexivity.
Qed.
Print Assumptions C05_type1_any_state_byte.

(* with the state byte 01 or 00: every field, OFF normalisation included *)
Theorem C05_type1_broadcast : forall (f1 id f2 : bytes) (key : N) (f3 name ip mac f5 : bytes) (on : bool) (f6 : bytes) (power : N)
    (f7a f7b : bytes) (remaining : N) (f8 : bytes) (auto : N) (f9 : bytes) (tname tvalue thex : string) (proto : N) (cat : string),
  In (tname, tvalue, thex, proto, cat) device_types ->
  length f1 = 16%nat -> length id = 3%nat -> length f2 = 19%nat -> length f3 = 1%nat -> length ip = 4%nat -> length mac = 6%nat ->
  length f5 = 47%nat -> length f6 = 1%nat -> length f7a = 2%nat -> length f7b = 8%nat -> length f8 = 4%nat -> length f9 = 6%nat ->
  (length name <= 32)%nat -> utf8_valid name = true -> last name 1 <> 0 ->
  power < 65536 -> remaining < 86400 -> auto < 86400 ->
  wf_bytes (concat (type1_segs f1 id f2 key f3 (pad0 32 name) (unhex_str thex) ip mac f5 (if on then 1 else 0) f6 power
                      (f7a ++ f7b) remaining f8 auto f9)) ->
  cat = "WATER_HEATER"%string \/ cat = "POWER_PLUG"%string ->
  parse_datagram false false
    (concat (type1_segs f1 id f2 key f3 (pad0 32 name) (unhex_str thex) ip mac f5 (if on then 1 else 0) f6 power
               (f7a ++ f7b) remaining f8 auto f9)) =
  Delivered
    (if String.eqb cat "WATER_HEATER"
     then DWaterHeater tname on (hexlify id) (hexlify [key]) (dotted ip) (mac_of mac) name (if on then power else 0)
            (if on then fmt_hhmmss remaining else s2l "00:00:00") (fmt_hhmmss auto)
     else DPowerPlug tname on (hexlify id) (hexlify [key]) (dotted ip) (mac_of mac) name (if on then power else 0)).
Proof.
  intros f1 id f2 key f3 name ip mac f5 on f6 power f7a f7b remaining f8 auto f9 tname tvalue thex proto cat
    Hrow L1 Lid L2 L3 Lip Lmac L5 L6 L7a L7b L8 L9 Lname Vname Nname Hpower Hrem Hauto Hwf Hcat.
  pose proof (C05_type1_any_state_byte f1 id f2 key f3 name ip mac f5 (if on then 1 else 0) f6 power f7a f7b remaining f8 auto f9
                tname tvalue thex proto cat Hrow L1 Lid L2 L3 Lip Lmac L5 L6 L7a L7b L8 L9 Lname Vname Nname) as H.
  destruct on; exact (H eq_refl Hpower (fun _ => Hrem) Hauto Hwf Hcat).
Qed.
Print Assumptions C05_type1_broadcast.

(* Runner and Runner Mini (159 bytes): MAC at bytes 81-86, position at 135 with byte 136 zero, direction at 137-138 *)
Theorem C05_runner_broadcast : forall (f1 id f2 : bytes) (key : N) (f3 name f4 ip mac f5 : bytes) (position : N) (f6 : bytes)
    (tname tvalue thex : string) (proto : N) (dname dvalue ddisp : string),
  In (tname, tvalue, thex, proto, "SHUTTER"%string) device_types -> In (dname, dvalue, ddisp) shutter_directions ->
  length f1 = 16%nat -> length id = 3%nat -> length f2 = 19%nat -> length f3 = 1%nat -> length f4 = 1%nat ->
  length ip = 4%nat -> length mac = 6%nat -> length f5 = 48%nat -> length f6 = 20%nat ->
  (length name <= 32)%nat -> utf8_valid name = true -> last name 1 <> 0 -> position < 256 ->
  wf_bytes (concat (runner_segs f1 id f2 key f3 (pad0 32 name) (unhex_str thex) f4 ip mac f5 position (unhex_str dvalue) f6)) ->
  parse_datagram false false
    (concat (runner_segs f1 id f2 key f3 (pad0 32 name) (unhex_str thex) f4 ip mac f5 position (unhex_str dvalue) f6)) =
  Delivered (DShutter tname (hexlify id) (hexlify [key]) (dotted ip) (mac_of mac) name position dname).
Proof.
  intros f1 id f2 key f3 name f4 ip mac f5 position f6 tname tvalue thex proto dname dvalue ddisp
    Hrow Hdir L1 Lid L2 L3 L4 Lip Lmac L5 L6 Lname Vname Nname Hpos.
  set (segs := runner_segs f1 id f2 key f3 (pad0 32 name) (unhex_str thex) f4 ip mac f5 position (unhex_str dvalue) f6). intros Hwf.
  destruct (device_type_row _ _ _ _ _ Hrow) as (Lm & Mrow & Hbz).
  destruct (spelt_member _ _ _ _ _ directions_spelt Hdir) as [Dhex Ld].
  assert (Hw : widths segs [2; 16; 3; 19; 1; 1; 32; 2; 1; 4; 6; 48; 1; 1; 2; 20]%nat).
  { unfold widths, segs, runner_segs. cbn [map]. rewrite (pad0_length 32 name Lname), Lm, Ld, L1, Lid, L2, L3, L4, Lip, Lmac, L5, L6. reflexivity. }
  assert (Hlen : length (concat segs) = 159%nat) by exact (length_layout _ _ Hw).
  assert (Horig : is_switcher_originator (concat segs) = true).
  { apply originator_intro; [reflexivity|right; right; exact Hlen]. }
  unfold parse_datagram. rewrite (slice_field Hw 7 74 76 eq_refl), Mrow. simpl (String.eqb _ _). cbv iota.
  rewrite Horig, (Hbz : _ = false).
  (* the power field is decoded (and ignored) when byte 133 says on: it always parses *)
  destruct (power_r_ok (eqs (pyslice 266 268 (hexlify (concat segs))) "01") _ Hwf ltac:(lia)) as [p ->].
  rewrite (slice_field Hw 6 42 74 eq_refl). unfold pad0. rewrite decode_name by assumption.
  (* position: byte 135 in hex, byte 136 (zero) read as decimal *)
  rewrite (slice_fields Hw 12 2 135 137 (x := [position; 0]) eq_refl).
  change (pyslice 2 4 (hexlify [position; 0])) with (hexlify [0]).
  change (pyslice 0 2 (hexlify [position; 0])) with (hexlify [position]).
  change (int10 (hexlify [0])) with (Some 0). rewrite int16_byte by exact Hpos.
  rewrite (slice_field Hw 14 137 139 eq_refl), Dhex, lookup3_value, (lookup_member _ _ _ _ directions_find Hdir).
  rewrite (hex_field Hw 2 36 42 eq_refl), (hex_field Hw 4 80 82 eq_refl), (slice_field Hw 9 77 81 eq_refl), (slice_field Hw 10 81 87 eq_refl).
  reflexivity.
Qed.
Print Assumptions C05_runner_broadcast.
