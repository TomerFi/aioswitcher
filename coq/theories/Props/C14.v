(* C14 — A schedule's duration is (end - start) modulo 24 hours *)
Require Import AS.Base.Prelude AS.Base.Dec AS.Model.ScheduleTools AS.Proofs.ClockStrings.

Theorem C14_duration : forall s e, (s < 1440)%N -> (e < 1440)%N ->
  calc_duration (hhmm s) (hhmm e) = Ok (fmt_hmmss (((e + 1440 - s) mod 1440) * 60)).
Proof. intros s e Hs He. apply calc_duration_clock; apply ClockStrings.clock_minutes_hhmm; assumption. Qed.
Print Assumptions C14_duration.

Example C14_examples :
  calc_duration (s2l "13:00") (s2l "14:00") = Ok (s2l "1:00:00") /\
  calc_duration (s2l "14:00") (s2l "13:00") = Ok (s2l "23:00:00") /\
  calc_duration (s2l "23:59") (s2l "00:00") = Ok (s2l "0:01:00") /\
  calc_duration (s2l "07:05") (s2l "07:05") = Ok (s2l "0:00:00").
Proof. vm_compute. repeat split. Qed.
