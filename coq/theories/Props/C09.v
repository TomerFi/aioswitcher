(* C09 — No device reply can crash the client or be mistaken for success *)
Require Import AS.Base.Prelude AS.Base.Exchange AS.Model.Messages AS.Model.Api AS.Proofs.TotalityProofs AS.Proofs.ApiProofs
  AS.Proofs.Queries.
Local Open Scope N_scope.

(* the three reply parsers raise nothing but what the API wraps into RuntimeError, for every reply: KeyError or ValueError
   itself for the type-1 parser ([kv]), these or a subclass for the other two ([wrapped]); OverflowError of datetime.time is
   unreachable from a 4-byte field *)
Theorem C09_type1_parser_exceptions r e : parse_state_reply r = Exc e -> kv e.
Proof. exact (parse_state_reply_exn r e). Qed.
Print Assumptions C09_type1_parser_exceptions.
Theorem C09_thermostat_parser_exceptions r e : parse_thermostat_reply r = Exc e -> wrapped e = true.
Proof.
  revert e. change (raises_only (fun e => wrapped e = true) (parse_thermostat_reply r)). unfold parse_thermostat_reply.
  do 2 (apply only_bind; [apply only_int16r; reflexivity|intros ?]).
  apply only_bind; [destruct (Utf8.utf8_valid _); [apply only_ok|apply only_exc; reflexivity]|intros ?; apply only_ok].
Qed.
Print Assumptions C09_thermostat_parser_exceptions.
Theorem C09_shutter_parser_exceptions r e : parse_shutter_reply r = Exc e -> wrapped e = true.
Proof.
  revert e. change (raises_only (fun e => wrapped e = true) (parse_shutter_reply r)). unfold parse_shutter_reply.
  apply only_bind; [destruct (lookup_value _ _); [apply only_ok|apply only_exc; reflexivity]|intros dir].
  apply only_bind; [apply only_int16r; reflexivity|intros ?; apply only_ok].
Qed.
Print Assumptions C09_shutter_parser_exceptions.

(* each state query, for every script of device replies: a parsed response or RuntimeError, never another exception;
   one frame and RuntimeError on an empty login reply, two frames otherwise *)
Theorem C09_get_state c now script : wf_cfg c -> now < 4294967296 -> script_wf script ->
  let '(fs, r) := Exchange.run (get_state c now) script in
  ((exists v, r = Ok v) \/ r = Exc RuntimeError) /\
  (hd [] script = [] -> length fs = 1%nat /\ r = Exc RuntimeError) /\
  (hd [] script <> [] -> length fs = 2%nat).
Proof. exact (get_state_exchange c now script). Qed.
Print Assumptions C09_get_state.
Theorem C09_get_breeze_state c now script : wf_cfg c -> now < 4294967296 -> script_wf script ->
  let '(fs, r) := Exchange.run (get_breeze_state c now) script in
  ((exists v, r = Ok v) \/ r = Exc RuntimeError) /\
  (hd [] script = [] -> length fs = 1%nat /\ r = Exc RuntimeError) /\ (hd [] script <> [] -> length fs = 2%nat).
Proof. intros Hc Hn Hw. exact (type2_query_exchange c now Hc Hn parse_thermostat_reply script Hw C09_thermostat_parser_exceptions). Qed.
Print Assumptions C09_get_breeze_state.
Theorem C09_get_shutter_state c now script : wf_cfg c -> now < 4294967296 -> script_wf script ->
  let '(fs, r) := Exchange.run (get_shutter_state c now) script in
  ((exists v, r = Ok v) \/ r = Exc RuntimeError) /\
  (hd [] script = [] -> length fs = 1%nat /\ r = Exc RuntimeError) /\ (hd [] script <> [] -> length fs = 2%nat).
Proof. intros Hc Hn Hw. exact (type2_query_exchange c now Hc Hn parse_shutter_reply script Hw C09_shutter_parser_exceptions). Qed.
Print Assumptions C09_get_shutter_state.

(* empty login reply: every type-2 operation raises RuntimeError having written the login frame only *)
Theorem C09_type2_operation_empty_login c now t extra fix_len script : wf_cfg c -> now < 4294967296 -> hd [] script = [] ->
  let '(fs, r) := Exchange.run (type2_op false c now t extra fix_len) script in length fs = 1%nat /\ r = Exc RuntimeError.
Proof.
  intros Hc Hn He. unfold Exchange.run, type2_op, bindM.
  destruct (login_writes c now Hc Hn true) as [lf ->].
  cbn [Wire.logged_in lr_response replies]. rewrite He. cbn. split; reflexivity.
Qed.
Print Assumptions C09_type2_operation_empty_login.
Theorem C09_thermostat_control_empty_login lg c now r state mode target fan swing update script :
  wf_cfg c -> now < 4294967296 -> hd [] script = [] ->
  let '(fs, res) := Exchange.run (control_breeze_device lg c now r state mode target fan swing update) script in
  length fs = 1%nat /\ res = Exc RuntimeError.
Proof. exact (breeze_empty_login lg c now r state mode target fan swing update script). Qed.
Print Assumptions C09_thermostat_control_empty_login.

(* a generic response reports success iff the reply is non-empty *)
Theorem C09_successful_iff r : successful r = true <-> r <> [].
Proof. exact (Wire.successful_iff r). Qed.
Print Assumptions C09_successful_iff.
