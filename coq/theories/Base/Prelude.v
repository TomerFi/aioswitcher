(* Shared imports, string literals as list N, result type with Python exception classes *)
From Coq Require Export String Ascii.
From Coq Require Export NArith ZArith Bool Lia Arith List.
Export ListNotations.

Definition bytes := list N.

Definition bytes_eq_dec (a b : bytes) : {a = b} + {a <> b} := list_eq_dec N.eq_dec a b.

Definition s2l (s : string) : bytes := map N_of_ascii (list_ascii_of_string s).

Inductive exn :=
| ValueError | KeyError | IndexError | RuntimeError | StructError | BinasciiError
| UnicodeDecodeError | OverflowError | TypeError | OSError.

Definition is_value_error (e : exn) : bool :=
  match e with ValueError | BinasciiError | UnicodeDecodeError => true | _ => false end.
Definition is_key_error (e : exn) : bool :=
  match e with KeyError => true | _ => false end.

Inductive result (A : Type) := Ok (a : A) | Exc (e : exn).
Arguments Ok {A} a.
Arguments Exc {A} e.

Definition bind {A B} (r : result A) (f : A -> result B) : result B :=
  match r with Ok a => f a | Exc e => Exc e end.
Notation "'do' x <- r ;; k" := (bind r (fun x => k)) (at level 200, x pattern, r at level 100, k at level 200).

Definition of_option {A} (e : exn) (o : option A) : result A :=
  match o with Some a => Ok a | None => Exc e end.

(* python slicing with non-negative bounds: l[lo:hi] *)
Definition pyslice {A} (lo hi : nat) (l : list A) : list A := firstn (hi - lo) (skipn lo l).

Lemma Forall_pyslice {A} (P : A -> Prop) lo hi l : Forall P l -> Forall P (pyslice lo hi l).
Proof.
  intros H. rewrite <- (firstn_skipn lo l) in H. apply Forall_app in H. destruct H as [_ H].
  rewrite <- (firstn_skipn (hi - lo) (skipn lo l)) in H. apply Forall_app in H. exact (proj1 H).
Qed.

Lemma Forall_hd {A} (P : A -> Prop) d l : P d -> Forall P l -> P (hd d l).
Proof. intros Hd H. destruct H; assumption. Qed.
Lemma existsb_eqb_In d l : existsb (Nat.eqb d) l = true <-> In d l.
Proof.
  rewrite existsb_exists. split.
  - intros [x [Hx E]]. apply Nat.eqb_eq in E. subst. exact Hx.
  - intros H. exists d. split; [exact H|apply Nat.eqb_refl].
Qed.
Lemma filter_length_le {A} (f : A -> bool) l : (length (filter f l) <= length l)%nat.
Proof. induction l as [|x l IH]; [apply le_n|]. cbn [filter]. destruct (f x); cbn [length]; lia. Qed.
Lemma Forall_repeat {A} (P : A -> Prop) x n : P x -> Forall P (repeat x n).
Proof. intros H. induction n; cbn; constructor; assumption. Qed.

Lemma firstn_add {A} j : forall k (l : list A), firstn (k + j) l = firstn k l ++ firstn j (skipn k l).
Proof.
  induction k as [|k IH]; intros l; [reflexivity|]. destruct l as [|x l]; [destruct j; reflexivity|].
  cbn [Nat.add firstn skipn app]. f_equal. apply IH.
Qed.
Lemma map_nth_seq {A} (l : list A) d : map (fun k => nth k l d) (seq 0 (length l)) = l.
Proof.
  induction l as [|x xs IH]; [reflexivity|].
  cbn [length seq map nth]. f_equal. rewrite <- seq_shift, map_map. exact IH.
Qed.
Lemma rev_repeat {A} (a : A) n : rev (repeat a n) = repeat a n.
Proof. induction n as [|n IH]; [reflexivity|]. cbn [repeat rev]. rewrite IH. symmetry. apply repeat_cons. Qed.
Lemma fold_left_inv {S A} (P : S -> Prop) (f : S -> A -> S) : (forall s a, P s -> P (f s a)) ->
  forall l s, P s -> P (fold_left f l s).
Proof. intros Hf. induction l as [|a l IH]; intros s H; [exact H|]. apply IH, Hf, H. Qed.
Lemma forallb_ext_in {A} (f g : A -> bool) l : (forall x, In x l -> f x = g x) -> forallb f l = forallb g l.
Proof. induction l as [|x l IH]; intros H; [reflexivity|]. cbn. rewrite (H x), IH; auto using in_eq, in_cons. Qed.
Lemma firstn_app_le {A} n (a b : list A) : n <= length a -> firstn n (a ++ b) = firstn n a.
Proof. intros H. rewrite firstn_app. replace (n - length a) with 0 by lia. apply app_nil_r. Qed.
Lemma filter_filter {A} (p q : A -> bool) l : filter p (filter q l) = filter (fun y => (q y && p y)%bool) l.
Proof. induction l as [|y l IH]; [reflexivity|]. cbn [filter]. destruct (q y); cbn [filter andb]; rewrite IH; reflexivity. Qed.
Lemma filter_true {A} (l : list A) : filter (fun _ => true) l = l.
Proof. induction l as [|x l IH]; cbn; [|rewrite IH]; reflexivity. Qed.
Lemma length_concat {A} n (ls : list (list A)) : (forall l, In l ls -> length l = n) -> length (concat ls) = (n * length ls)%nat.
Proof.
  intros H. induction ls as [|l ls IH]; [cbn; lia|]. cbn [concat length].
  rewrite app_length, (H l (or_introl eq_refl)), IH by (intros l' Hl; apply H; right; exact Hl). lia.
Qed.
Lemma NoDup_snoc {A} (l : list A) x : NoDup l -> ~ In x l -> NoDup (l ++ [x]).
Proof.
  intros Hn Hx. induction Hn as [|y l Hy Hn IH]; cbn [app]; [constructor; [intros []|constructor]|]. constructor.
  - rewrite in_app_iff. intros [H|[->|[]]]; [exact (Hy H)|apply Hx; left; reflexivity].
  - apply IH. intros H. apply Hx. right. exact H.
Qed.

Lemma skipn_skipn' {A} a : forall b (l : list A), skipn a (skipn b l) = skipn (b + a) l.
Proof.
  intros b. induction b as [|b IH]; intros l; [reflexivity|].
  destruct l as [|x l]; [cbn; destruct a; reflexivity|]. apply IH.
Qed.

Lemma pyslice_pyslice {A} a b lo hi lo' hi' (l : list A) : lo' = (lo + a)%nat -> hi' = (lo + Nat.min b (hi - lo))%nat ->
  pyslice a b (pyslice lo hi l) = pyslice lo' hi' l.
Proof.
  intros -> ->. unfold pyslice. rewrite skipn_firstn_comm, firstn_firstn, skipn_skipn'. f_equal. lia.
Qed.

Lemma pyslice_length_le {A} lo hi (l : list A) : (length (pyslice lo hi l) <= hi - lo)%nat.
Proof. unfold pyslice. rewrite firstn_length. lia. Qed.
Lemma pyslice_length {A} lo hi (l : list A) : (hi <= length l)%nat -> length (pyslice lo hi l) = (hi - lo)%nat.
Proof. intros H. unfold pyslice. rewrite firstn_length, skipn_length. lia. Qed.
Lemma pyslice_map {A B} (f : A -> B) lo hi l : pyslice lo hi (map f l) = map f (pyslice lo hi l).
Proof. unfold pyslice. rewrite skipn_map, firstn_map. reflexivity. Qed.

Lemma pyslice_app_l {A} lo hi (a b : list A) : (hi <= length a)%nat -> pyslice lo hi (a ++ b) = pyslice lo hi a.
Proof.
  intros H. unfold pyslice. rewrite skipn_app, firstn_app, skipn_length.
  replace (hi - lo - (length a - lo))%nat with 0%nat by lia. apply app_nil_r.
Qed.
Lemma pyslice_app_skipn {A} k lo hi (a b : list A) : length a = k -> (k <= lo)%nat -> pyslice lo hi (a ++ skipn k b) = pyslice lo hi b.
Proof.
  intros <- H. unfold pyslice. rewrite skipn_app, skipn_all2, skipn_skipn' by exact H.
  replace (length a + (lo - length a))%nat with lo by lia. reflexivity.
Qed.
Lemma pyslice_app_mid {A} (a h s : list A) : pyslice (length a) (length a + length h) (a ++ h ++ s) = h.
Proof.
  unfold pyslice. rewrite skipn_app, skipn_all, Nat.sub_diag. cbn [skipn app].
  replace (length a + length h - length a)%nat with (length h) by lia.
  rewrite firstn_app, Nat.sub_diag, firstn_all. cbn [firstn]. apply app_nil_r.
Qed.
Lemma pyslice_app_r {A} (a b : list A) : pyslice (length a) (length a + length b) (a ++ b) = b.
Proof. pose proof (pyslice_app_mid a b []) as H. rewrite app_nil_r in H. exact H. Qed.
Lemma pyslice_app_whole_l {A} (a b : list A) : pyslice 0 (length a) (a ++ b) = a.
Proof. exact (pyslice_app_mid [] a b). Qed.

(* list equality as the Spec's checkers test it: same length, equal pairwise; more generally, related pairwise
   by a test that determines the image of its first argument under f *)
Lemma pairwise_map {A B} (R : A -> B -> bool) (f : A -> B) : (forall x y, R x y = true -> f x = y) -> forall a b,
  (length a =? length b)%nat && forallb (fun '(x, y) => R x y) (combine a b) = true -> map f a = b.
Proof.
  intros He. induction a as [|y a IH]; intros [|z b] Hab; try reflexivity; try (cbn in Hab; discriminate).
  cbn in Hab. apply andb_prop in Hab. destruct Hab as [Hl Hab]. apply andb_prop in Hab. destruct Hab as [Hy Hab].
  cbn [map]. f_equal; [apply He, Hy|]. apply IH. rewrite Hl. exact Hab.
Qed.
Lemma pairwise_eqb_eq {A} (eqb : A -> A -> bool) : (forall x y, eqb x y = true -> x = y) -> forall a b,
  (length a =? length b)%nat && forallb (fun '(x, y) => eqb x y) (combine a b) = true -> a = b.
Proof. intros He a b H. rewrite <- (map_id a). exact (pairwise_map eqb (fun x => x) He a b H). Qed.
Lemma pairwise_eqb_refl {A} (eqb : A -> A -> bool) : (forall x, eqb x x = true) -> forall a,
  (length a =? length a)%nat && forallb (fun '(x, y) => eqb x y) (combine a a) = true.
Proof. intros He a. induction a as [|x a IH]; [reflexivity|]. cbn. rewrite He. exact IH. Qed.

(* exhaustive sweep over [0, 2^depth) *)
Fixpoint sweep (f : N -> bool) (depth : nat) (base : N) : bool :=
  match depth with
  | O => f base
  | S d => sweep f d (2*base) && sweep f d (2*base+1)
  end.

Lemma sweep_sound f : forall depth base x,
  sweep f depth base = true ->
  (base * 2^(N.of_nat depth) <= x < (base+1) * 2^(N.of_nat depth))%N -> f x = true.
Proof.
  induction depth as [|d IH]; intros base x Hs Hx.
  - assert (x = base) by lia. subst. exact Hs.
  - apply andb_prop in Hs. destruct Hs as [H0 H1].
    rewrite Nat2N.inj_succ, N.pow_succ_r' in Hx.
    destruct (N.lt_ge_cases x ((2*base+1) * 2^(N.of_nat d))) as [Hlt|Hge].
    + apply (IH (2*base)%N); [exact H0|lia].
    + apply (IH (2*base+1)%N); [exact H1|lia].
Qed.

Lemma sweep_all f depth x : sweep f depth 0 = true -> (x < 2^(N.of_nat depth))%N -> f x = true.
Proof. intros H Hx. apply (sweep_sound f depth 0%N); [exact H|lia]. Qed.
