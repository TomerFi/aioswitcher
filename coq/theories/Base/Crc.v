Require Import AS.Base.Prelude.
Open Scope N_scope.

Fixpoint iter {A} (n : nat) (f : A -> A) (x : A) : A :=
  match n with O => x | S k => iter k f (f x) end.

(* Spec: bit-serial CRC-16/CCITT, MSB first, polynomial 0x1021 *)
Definition crc_bit (c : N) : N :=
  let s := N.shiftl c 1 in
  if N.testbit c 15 then N.lxor (N.land s 65535) 4129 else N.land s 65535.
Definition crc_byte_spec (c b : N) : N := iter 8 crc_bit (N.lxor c (N.shiftl b 8)).
Definition crc_spec (init : N) (bs : bytes) : N := fold_left crc_byte_spec bs init.

(* Model of binascii.crc_hqx: table driven *)
Definition tab_entry (i : N) : N := iter 8 crc_bit (N.shiftl i 8).
Definition crc_byte_tab (c b : N) : N :=
  N.lxor (N.land (N.shiftl c 8) 65280) (tab_entry (N.lxor (N.shiftr c 8) b)).
Definition crc_hqx (bs : bytes) (init : N) : N := fold_left crc_byte_tab bs init.

(* The shift register is linear over xor, so eight steps act on the two bytes of the register separately: the low byte
   is shifted out of reach of the polynomial, the high byte gives the table entry by definition. *)
Lemma crc_bit_lxor a b : crc_bit (N.lxor a b) = N.lxor (crc_bit a) (crc_bit b).
Proof.
  unfold crc_bit. rewrite N.lxor_spec, N.shiftl_lxor.
  apply N.bits_inj; intros n.
  destruct (N.testbit a 15), (N.testbit b 15); cbn [xorb];
    rewrite ?N.lxor_spec, ?N.land_spec, ?N.lxor_spec;
    destruct (N.testbit (N.shiftl a 1) n), (N.testbit (N.shiftl b 1) n), (N.testbit 65535 n), (N.testbit 4129 n); reflexivity.
Qed.

Lemma iter_crc_bit_lxor k : forall a b, iter k crc_bit (N.lxor a b) = N.lxor (iter k crc_bit a) (iter k crc_bit b).
Proof. induction k as [|k IH]; intros a b; cbn [iter]; [reflexivity|]. rewrite crc_bit_lxor. apply IH. Qed.

Lemma crc_bit_small c : c < 32768 -> crc_bit c = 2 * c.
Proof.
  intros H. unfold crc_bit. rewrite N.testbit_eqb. rewrite N.div_small by exact H.
  change (0 mod 2 =? 1) with false. change 65535 with (N.ones 16).
  rewrite N.land_ones, N.shiftl_mul_pow2.
  rewrite N.mod_small; lia.
Qed.

Lemma iter_crc_bit_small k : forall c, c * 2 ^ N.of_nat k < 65536 -> iter k crc_bit c = c * 2 ^ N.of_nat k.
Proof.
  induction k as [|k IH]; intros c H; cbn [iter]; [cbn; lia|].
  rewrite Nat2N.inj_succ, N.pow_succ_r' in *.
  rewrite crc_bit_small by nia. rewrite IH; nia.
Qed.

Lemma split_bytes x : x = N.lxor (N.shiftl (N.shiftr x 8) 8) (N.land x 255).
Proof.
  apply N.bits_inj; intros n. rewrite N.lxor_spec, N.land_spec. change 255 with (N.ones 8).
  destruct (N.lt_ge_cases n 8).
  - rewrite N.shiftl_spec_low, N.ones_spec_low, andb_true_r, xorb_false_l by lia. reflexivity.
  - rewrite N.shiftl_spec_high', N.shiftr_spec', N.ones_spec_high, andb_false_r, xorb_false_r by lia. f_equal. lia.
Qed.

Lemma step8 x : iter 8 crc_bit x = N.lxor (N.shiftl (N.land x 255) 8) (tab_entry (N.shiftr x 8)).
Proof.
  unfold tab_entry. rewrite (split_bytes x) at 1. rewrite iter_crc_bit_lxor, N.lxor_comm.
  rewrite iter_crc_bit_small, <- N.shiftl_mul_pow2; [reflexivity|].
  assert (N.land x 255 < 256) by (change 255 with (N.ones 8); rewrite N.land_ones; apply N.mod_lt; discriminate).
  lia.
Qed.

(* below 2^n means that shifting right by n leaves nothing, and shifts distribute over xor *)
Lemma lxor_lt a b n : a < 2^n -> b < 2^n -> N.lxor a b < 2^n.
Proof.
  intros Ha Hb. apply N.div_small_iff; [apply N.pow_nonzero; discriminate|].
  rewrite <- N.shiftr_div_pow2, N.shiftr_lxor, !N.shiftr_div_pow2, !N.div_small by assumption. reflexivity.
Qed.

Lemma land_low8_lxor_shl c b : N.land (N.lxor c (N.shiftl b 8)) 255 = N.land c 255.
Proof.
  apply N.bits_inj; intros n. rewrite !N.land_spec, N.lxor_spec.
  destruct (N.lt_ge_cases n 8) as [Hn|Hn].
  - rewrite N.shiftl_spec_low by lia. rewrite xorb_false_r. reflexivity.
  - change 255 with (N.ones 8). rewrite N.ones_spec_high by lia. rewrite !andb_false_r. reflexivity.
Qed.
Lemma shr8_lxor_shl c b : N.shiftr (N.lxor c (N.shiftl b 8)) 8 = N.lxor (N.shiftr c 8) b.
Proof. rewrite N.shiftr_lxor, N.shiftr_shiftl_l by lia. rewrite N.sub_diag, N.shiftl_0_r. reflexivity. Qed.
Lemma shl8_low c : N.shiftl (N.land c 255) 8 = N.land (N.shiftl c 8) 65280.
Proof.
  apply N.bits_inj; intros n. rewrite N.land_spec.
  destruct (N.lt_ge_cases n 8) as [Hn|Hn].
  - rewrite !N.shiftl_spec_low by lia. reflexivity.
  - rewrite !N.shiftl_spec_high' by lia. rewrite N.land_spec.
    change 65280 with (N.shiftl (N.ones 8) 8).
    rewrite (N.shiftl_spec_high' (N.ones 8)) by lia. reflexivity.
Qed.

Lemma byte_step_eq c b : crc_byte_spec c b = crc_byte_tab c b.
Proof.
  unfold crc_byte_spec, crc_byte_tab. rewrite step8, land_low8_lxor_shl, shr8_lxor_shl, shl8_low. reflexivity.
Qed.

Lemma crc_bit_lt c : crc_bit c < 65536.
Proof.
  unfold crc_bit. assert (H : N.land (N.shiftl c 1) 65535 < 65536).
  { change 65535 with (N.ones 16). rewrite N.land_ones. apply N.mod_lt. discriminate. }
  destruct (N.testbit c 15); [|exact H].
  apply (lxor_lt _ _ 16); [exact H|reflexivity].
Qed.
Lemma crc_byte_spec_lt c b : crc_byte_spec c b < 65536.
Proof. unfold crc_byte_spec. cbn [iter]. apply crc_bit_lt. Qed.

Lemma crc_spec_lt bs : forall init, init < 65536 -> crc_spec init bs < 65536.
Proof.
  induction bs as [|b bs IH]; intros init Hi; [exact Hi|].
  unfold crc_spec in *. cbn [fold_left]. apply IH, crc_byte_spec_lt.
Qed.

(* the table-driven loop is the bit-serial one on every input, bytes or not *)
Theorem crc_hqx_is_spec bs : forall init, crc_hqx bs init = crc_spec init bs.
Proof.
  unfold crc_hqx, crc_spec. induction bs as [|b bs IH]; intros init; [reflexivity|].
  cbn [fold_left]. rewrite byte_step_eq. apply IH.
Qed.

Theorem crc_hqx_eq_spec bs : forall init, init < 65536 -> Forall (fun b => b < 256) bs ->
  crc_hqx bs init = crc_spec init bs.
Proof. intros init _ _. apply crc_hqx_is_spec. Qed.
