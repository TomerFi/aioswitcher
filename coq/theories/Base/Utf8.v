(* strict UTF-8 validity as bytes.decode() checks it (Unicode table 3-7), as a byte-at-a-time automaton *)
Require Import AS.Base.Prelude.
Open Scope N_scope.

Definition between (lo hi b : N) : bool := (lo <=? b) && (b <=? hi).
Definition cont (b : N) : bool := between 128 191 b.

(* U0: between characters; UC n lo hi: the next byte must lie in [lo, hi], then n more continuation bytes *)
Inductive ustate := U0 | UC (n : nat) (lo hi : N).

Definition ustep (s : ustate) (b : N) : option ustate :=
  match s with
  | U0 =>
      if b <? 128 then Some U0
      else if between 194 223 b then Some (UC 0 128 191)
      else if b =? 224 then Some (UC 1 160 191)
      else if b =? 237 then Some (UC 1 128 159)
      else if between 225 239 b then Some (UC 1 128 191)
      else if b =? 240 then Some (UC 2 144 191)
      else if b =? 244 then Some (UC 2 128 143)
      else if between 241 243 b then Some (UC 2 128 191)
      else None
  | UC n lo hi =>
      if between lo hi b then Some (match n with O => U0 | S k => UC k 128 191 end) else None
  end.

Fixpoint urun (s : ustate) (bs : bytes) : option ustate :=
  match bs with
  | [] => Some s
  | b :: r => match ustep s b with Some s' => urun s' r | None => None end
  end.

Definition utf8_valid (bs : bytes) : bool := match urun U0 bs with Some U0 => true | _ => false end.

(* s.rstrip("\x00") on the UTF-8 bytes *)
Fixpoint drop0 (l : bytes) : bytes := match l with 0 :: r => drop0 r | _ => l end.
Definition rstrip0 (bs : bytes) : bytes := rev (drop0 (rev bs)).

Lemma urun_app s a : forall b, urun s (a ++ b) = match urun s a with Some s' => urun s' b | None => None end.
Proof.
  revert s. induction a as [|x a IH]; intros s b; [reflexivity|]. cbn [app urun].
  destruct (ustep s x); [apply IH|reflexivity].
Qed.
Lemma urun_zeros n : urun U0 (repeat 0 n) = Some U0.
Proof. induction n as [|n IH]; [reflexivity|]. exact IH. Qed.
Lemma utf8_valid_pad a n : utf8_valid a = true -> utf8_valid (a ++ repeat 0 n) = true.
Proof.
  unfold utf8_valid. rewrite urun_app. destruct (urun U0 a) as [[|k lo hi]|]; try discriminate.
  intros _. rewrite urun_zeros. reflexivity.
Qed.

Lemma drop0_zeros n l : drop0 (repeat 0 n ++ l) = drop0 l.
Proof. induction n as [|n IH]; [reflexivity|]. exact IH. Qed.
Lemma rstrip0_pad name n : last name 1 <> 0 -> rstrip0 (name ++ repeat 0 n) = name.
Proof.
  intros Hl. unfold rstrip0. rewrite rev_app_distr, rev_repeat, drop0_zeros.
  assert (Hn : drop0 (rev name) = rev name).
  { destruct name as [|x l _] using rev_ind; [reflexivity|].
    rewrite last_last in Hl. rewrite rev_unit. destruct x; [contradiction|reflexivity]. }
  rewrite Hn. apply rev_involutive.
Qed.
