Require Import AS.Base.Prelude.
Open Scope N_scope.

Definition hexdigit (n : N) : N := if n <? 10 then 48 + n else 87 + n.
Definition nib_of_char (c : N) : option N :=
  if (48 <=? c) && (c <=? 57) then Some (c - 48)
  else if (97 <=? c) && (c <=? 102) then Some (c - 87)
  else if (65 <=? c) && (c <=? 70) then Some (c - 55)
  else None.
Definition is_hexchar (c : N) : bool := match nib_of_char c with Some _ => true | None => false end.

Definition hexbyte (b : N) : bytes := [hexdigit (b / 16); hexdigit (b mod 16)].
Definition hexlify (bs : bytes) : bytes := flat_map hexbyte bs.

Fixpoint unhexlify (s : bytes) : option bytes :=
  match s with
  | [] => Some []
  | [_] => None
  | a :: b :: r =>
      match nib_of_char a, nib_of_char b, unhexlify r with
      | Some x, Some y, Some bs => Some (16 * x + y :: bs)
      | _, _, _ => None
      end
  end.

(* int(s, 16) on a string of hex digits; None = ValueError *)
Definition int16 (s : bytes) : option N :=
  match s with
  | [] => None
  | _ => fold_left (fun acc c => match acc, nib_of_char c with
                                 | Some a, Some d => Some (16 * a + d) | _, _ => None end) s (Some 0)
  end.

Definition le16 (n : N) : bytes := [n mod 256; n / 256 mod 256].
Definition le32 (n : N) : bytes := [n mod 256; n / 256 mod 256; n / 65536 mod 256; n / 16777216 mod 256].
Definition be32 (n : N) : bytes := [n / 16777216 mod 256; n / 65536 mod 256; n / 256 mod 256; n mod 256].
Definition of_le (bs : bytes) : N := fold_right (fun b acc => b + 256 * acc) 0 bs.

(* "{:02x}".format(n) for n < 256 is hexbyte; general "{:x}" *)
Fixpoint hex_digits_fuel (fuel : nat) (n : N) (acc : bytes) : bytes :=
  match fuel with
  | O => acc
  | S k => if n <? 16 then hexdigit n :: acc else hex_digits_fuel k (n / 16) (hexdigit (n mod 16) :: acc)
  end.
Definition fmt_x (n : N) : bytes := hex_digits_fuel (S (N.to_nat (N.log2 n))) n [].
Definition fmt_02x (n : N) : bytes := let d := fmt_x n in if (length d <? 2)%nat then 48 :: d else d.
Definition ljust (w : nat) (fill : N) (s : bytes) : bytes := s ++ repeat fill (w - length s).

(* induction two elements at a time, as unhexlify recurses *)
Lemma pairs_ind {A} (P : list A -> Prop) : P [] -> (forall a, P [a]) -> (forall a b r, P r -> P (a :: b :: r)) -> forall l, P l.
Proof.
  intros H0 H1 H2. assert (H : forall l, P l /\ forall a, P (a :: l)).
  { induction l as [|b r [IH IH']]; [auto|]. split; [apply IH'|]. intros a. apply H2, IH. }
  intros l. apply H.
Qed.

Lemma nib_hexdigit n : n < 16 -> nib_of_char (hexdigit n) = Some n.
Proof.
  intros H. unfold hexdigit, nib_of_char. destruct (N.ltb_spec n 10).
  - rewrite (proj2 (N.leb_le 48 (48 + n))), (proj2 (N.leb_le (48 + n) 57)) by lia. cbn [andb]. f_equal. lia.
  - rewrite (proj2 (N.leb_gt (87 + n) 57)), andb_false_r, (proj2 (N.leb_le 97 (87 + n))), (proj2 (N.leb_le (87 + n) 102)) by lia.
    cbn [andb]. f_equal. lia.
Qed.

Lemma nib_of_char_lt c x : nib_of_char c = Some x -> x < 16.
Proof.
  unfold nib_of_char. intros H.
  destruct ((48 <=? c) && (c <=? 57)) eqn:E; [|clear E; destruct ((97 <=? c) && (c <=? 102)) eqn:E; [|clear E; destruct ((65 <=? c) && (c <=? 70)) eqn:E; [|discriminate]]];
    injection H as <-; apply andb_prop in E; destruct E as [Hlo Hhi]; apply N.leb_le in Hlo, Hhi; lia.
Qed.

Lemma hexdigit_hex n : n < 16 -> is_hexchar (hexdigit n) = true.
Proof. intros H. unfold is_hexchar. rewrite nib_hexdigit by exact H. reflexivity. Qed.

Lemma div16_lt b : b < 256 -> b / 16 < 16.
Proof. intros H. apply N.div_lt_upper_bound; lia. Qed.
Lemma mod16_lt b : b mod 16 < 16.
Proof. apply N.mod_lt. discriminate. Qed.

Lemma hexlify_cons b bs : hexlify (b :: bs) = hexdigit (b / 16) :: hexdigit (b mod 16) :: hexlify bs.
Proof. reflexivity. Qed.

(* a hex digit of a nibble is the digit of no other number, bounded or not; hence the same of the two digits of a byte *)
Lemma hexdigit_inj n k : k < 16 -> hexdigit n = hexdigit k -> n = k.
Proof. unfold hexdigit. intros Hk. destruct (N.ltb_spec n 10), (N.ltb_spec k 10); lia. Qed.
Lemma hexbyte_inj b c : c < 256 -> hexbyte b = hexbyte c -> b = c.
Proof.
  intros Hc H. injection H as Hh Hl. apply hexdigit_inj in Hh, Hl; [|apply mod16_lt|apply div16_lt, Hc].
  rewrite (N.div_mod' b 16), (N.div_mod' c 16), Hh, Hl. reflexivity.
Qed.

Lemma unhexlify_hexlify bs : Forall (fun b => b < 256) bs -> unhexlify (hexlify bs) = Some bs.
Proof.
  induction 1 as [|b bs Hb _ IH]; [reflexivity|].
  rewrite hexlify_cons. cbn [unhexlify]. rewrite !nib_hexdigit, IH.
  - f_equal. f_equal. pose proof (N.div_mod b 16). lia.
  - apply mod16_lt.
  - apply div16_lt, Hb.
Qed.

Lemma hexlify_inj a b : Forall (fun x => x < 256) a -> Forall (fun x => x < 256) b -> hexlify a = hexlify b -> a = b.
Proof. intros Ha Hb E. apply (f_equal unhexlify) in E. rewrite !unhexlify_hexlify in E by assumption. congruence. Qed.

Lemma hexlify_length bs : length (hexlify bs) = (2 * length bs)%nat.
Proof. induction bs as [|b bs IH]; [reflexivity|]. rewrite hexlify_cons. cbn [length]. lia. Qed.

Lemma hexlify_app a b : hexlify (a ++ b) = hexlify a ++ hexlify b.
Proof. unfold hexlify. apply flat_map_app. Qed.

Lemma hexlify_repeat x n : hexlify (repeat x n) = concat (repeat (hexbyte x) n).
Proof. induction n as [|n IH]; [reflexivity|]. cbn [repeat concat]. rewrite <- IH. reflexivity. Qed.

Lemma hexlify_skipn n : forall bs, skipn (2*n) (hexlify bs) = hexlify (skipn n bs).
Proof.
  induction n as [|n IH]; intros bs; [reflexivity|].
  destruct bs as [|b bs]; [reflexivity|].
  replace (2 * S n)%nat with (S (S (2*n))) by lia.
  apply IH.
Qed.

Lemma hexlify_firstn n : forall bs, firstn (2*n) (hexlify bs) = hexlify (firstn n bs).
Proof.
  induction n as [|n IH]; intros bs; [reflexivity|].
  destruct bs as [|b bs]; [reflexivity|].
  replace (2 * S n)%nat with (S (S (2*n))) by lia.
  cbn [firstn]. rewrite hexlify_cons, IH. reflexivity.
Qed.

Lemma hexlify_slice a b bs : pyslice (2*a) (2*b) (hexlify bs) = hexlify (pyslice a b bs).
Proof.
  unfold pyslice. rewrite hexlify_skipn. replace (2*b - 2*a)%nat with (2*(b-a))%nat by lia.
  apply hexlify_firstn.
Qed.

Lemma unhexlify_ind (P : bytes -> bytes -> Prop) : P [] [] ->
  (forall c d r x y bs, nib_of_char c = Some x -> nib_of_char d = Some y -> unhexlify r = Some bs -> P r bs ->
     P (c :: d :: r) (16 * x + y :: bs)) ->
  forall s bs, unhexlify s = Some bs -> P s bs.
Proof.
  intros H0 H2. induction s as [|c|c d r IH] using pairs_ind; intros bs H; [injection H as <-; exact H0|discriminate|].
  cbn [unhexlify] in H. destruct (nib_of_char c) as [x|] eqn:Ec, (nib_of_char d) as [y|] eqn:Ed; try discriminate.
  destruct (unhexlify r) as [b|] eqn:Er; [|discriminate]. injection H as <-. apply H2; auto.
Qed.

Lemma unhexlify_app a : forall x b y, unhexlify a = Some x -> unhexlify b = Some y ->
  unhexlify (a ++ b) = Some (x ++ y).
Proof.
  intros x b y Ha Hb. revert a x Ha. apply unhexlify_ind; [exact Hb|].
  intros c d r x' y' bs Hc Hd _ IH. cbn [app unhexlify]. rewrite Hc, Hd, IH. reflexivity.
Qed.

Lemma unhexlify_bytes s : forall bs, unhexlify s = Some bs -> Forall (fun b => b < 256) bs.
Proof.
  revert s. apply unhexlify_ind; [constructor|]. intros c d r x y bs Hx Hy _ IH.
  constructor; [|exact IH]. apply nib_of_char_lt in Hx, Hy. lia.
Qed.

Lemma le16_bytes n : Forall (fun b => b < 256) (le16 n).
Proof. unfold le16. repeat constructor; apply N.mod_lt; discriminate. Qed.
Lemma le32_bytes n : Forall (fun b => b < 256) (le32 n).
Proof. unfold le32. repeat constructor; apply N.mod_lt; discriminate. Qed.
Lemma be32_bytes n : Forall (fun b => b < 256) (be32 n).
Proof. unfold be32. repeat constructor; apply N.mod_lt; discriminate. Qed.

Lemma hexlify_hexs bs : Forall (fun b => b < 256) bs -> Forall (fun c => is_hexchar c = true) (hexlify bs).
Proof.
  induction 1 as [|b bs Hb _ IH]; [constructor|].
  constructor; [apply hexdigit_hex, div16_lt, Hb|]. constructor; [apply hexdigit_hex, mod16_lt|exact IH].
Qed.

Lemma fmt_02x_hexs n : Forall (fun c => is_hexchar c = true) (fmt_02x n).
Proof.
  assert (H : forall fuel n acc, Forall (fun c => is_hexchar c = true) acc -> Forall (fun c => is_hexchar c = true) (hex_digits_fuel fuel n acc)).
  { induction fuel as [|k IH]; intros m acc Ha; [exact Ha|]. cbn [hex_digits_fuel].
    destruct (N.ltb_spec m 16); [constructor; [apply hexdigit_hex; assumption|exact Ha]|].
    apply IH. constructor; [apply hexdigit_hex, mod16_lt|exact Ha]. }
  unfold fmt_02x, fmt_x. destruct (_ <? 2)%nat; [constructor; [reflexivity|]|]; apply H; constructor.
Qed.

Lemma hexlify_nibbles hi lo : lo < 16 -> hexlify [16 * hi + lo] = [hexdigit hi; hexdigit lo].
Proof.
  intros H. rewrite hexlify_cons. replace (16 * hi + lo) with (lo + hi * 16) by lia.
  rewrite N.div_add, N.mod_add, N.div_small, N.mod_small by (try exact H; discriminate). reflexivity.
Qed.

(* "{:02x}" of a byte is its two hex digits: one digit and the padding below 16, else two steps of the loop, for which the
   fuel 1 + log2 n suffices *)
Lemma fmt_02x_byte n : n < 256 -> fmt_02x n = hexbyte n.
Proof.
  intros H. unfold fmt_02x, fmt_x, hexbyte. destruct (N.ltb_spec n 16) as [Hl|Hl].
  - cbn [hex_digits_fuel]. rewrite (proj2 (N.ltb_lt n 16) Hl). cbn [length Nat.ltb Nat.leb].
    rewrite N.div_small, N.mod_small by exact Hl. reflexivity.
  - pose proof (N.log2_le_mono 16 n Hl) as Hlog. change (N.log2 16) with 4 in Hlog.
    destruct (N.to_nat (N.log2 n)) as [|k] eqn:Ek; [lia|]. cbn [hex_digits_fuel]. rewrite (proj2 (N.ltb_ge n 16) Hl).
    replace (n / 16 <? 16) with true by (symmetry; apply N.ltb_lt, N.div_lt_upper_bound; lia). reflexivity.
Qed.

(* int(s, 16) on the hex text of bytes reads them as a big-endian number *)
Definition of_be (bs : bytes) : N := fold_left (fun a b => 256 * a + b) bs 0.

Lemma int16_fold s : Forall (fun b => b < 256) s -> forall a,
  fold_left (fun acc c => match acc, nib_of_char c with
                          | Some a, Some d => Some (16 * a + d) | _, _ => None end) (hexlify s) (Some a)
  = Some (fold_left (fun a b => 256 * a + b) s a).
Proof.
  induction 1 as [|b s Hb _ IH]; intros a; [reflexivity|].
  cbn [hexlify flat_map hexbyte app fold_left].
  rewrite (nib_hexdigit _ (div16_lt b Hb)), (nib_hexdigit _ (mod16_lt b)), IH. do 2 f_equal.
  pose proof (N.div_mod b 16). lia.
Qed.

Lemma int16_hexlify s : s <> [] -> Forall (fun b => b < 256) s -> int16 (hexlify s) = Some (of_be s).
Proof. intros Hne Hf. destruct s as [|b s]; [contradiction|]. exact (int16_fold _ Hf 0). Qed.

Lemma int16_byte b : b < 256 -> int16 (hexlify [b]) = Some b.
Proof. intros H. rewrite int16_hexlify by (try discriminate; repeat constructor; exact H). reflexivity. Qed.

(* the digits of x in base 256 folded back: the top digit is below 256, and each step is 256 * (y / 256) + y mod 256 = y *)
Lemma of_be_16 x : x < 65536 -> of_be [x / 256 mod 256; x mod 256] = x.
Proof.
  intros H. unfold of_be. cbn [fold_left].
  rewrite (N.mod_small (x / 256)) by (apply N.div_lt_upper_bound; [discriminate|exact H]).
  symmetry. apply N.div_mod'.
Qed.
Lemma of_be_be32 x : x < 4294967296 -> of_be (be32 x) = x.
Proof.
  intros H. unfold of_be, be32. cbn [fold_left]. rewrite N.mul_0_r, N.add_0_l.
  rewrite (N.mod_small (x / 16777216)) by (apply N.div_lt_upper_bound; [discriminate|exact H]).
  change 16777216 with (65536 * 256). rewrite <- (N.div_div x 65536 256), <- (N.div_mod' (x / 65536) 256) by discriminate.
  change 65536 with (256 * 256). rewrite <- (N.div_div x 256 256), <- (N.div_mod' (x / 256) 256) by discriminate.
  symmetry. apply N.div_mod'.
Qed.
