(* str.format on templates whose replacement fields are positional: {} / {n} / {:02x} *)
Require Import AS.Base.Prelude AS.Base.Hex.

Inductive piece := Lit (s : bytes) | Hole (i : nat) | HoleHex2 (i : nat).
Definition template := list piece.

(* arguments: strings, or integers rendered by a format spec *)
Inductive farg := AStr (s : bytes) | AInt (n : N).

Definition render_piece (args : list farg) (p : piece) : result bytes :=
  match p with
  | Lit s => Ok s
  | Hole i => match nth_error args i with
              | Some (AStr s) => Ok s
              | Some (AInt _) => Exc TypeError      (* not used by the code base *)
              | None => Exc IndexError
              end
  | HoleHex2 i => match nth_error args i with
                  | Some (AInt n) => Ok (fmt_02x n)
                  | Some (AStr _) => Exc ValueError (* "{:02x}".format("..") *)
                  | None => Exc IndexError
                  end
  end.

Fixpoint format (t : template) (args : list farg) : result bytes :=
  match t with
  | [] => Ok []
  | p :: t' => do a <- render_piece args p ;; do b <- format t' args ;; Ok (a ++ b)
  end.

(* symbolic rendering: every argument i is a string of known width ws[i] *)
Inductive cell := K (c : N) | U (i k : nat).
Definition sym_piece (ws : list nat) (p : piece) : list cell :=
  match p with
  | Lit s => map K s
  | Hole i | HoleHex2 i => map (U i) (seq 0 (nth i ws 0%nat))
  end.
Definition sym (t : template) (ws : list nat) : list cell := flat_map (sym_piece ws) t.
Definition denote (rs : list bytes) (c : cell) : N :=
  match c with K x => x | U i k => nth k (nth i rs []) 0%N end.

Definition rendered (t : template) (args : list farg) (rs : list bytes) : Prop :=
  forall p, In p t ->
    match p with
    | Lit _ => True
    | Hole i => exists s, nth_error args i = Some (AStr s) /\ nth i rs [] = s
    | HoleHex2 i => exists n, nth_error args i = Some (AInt n) /\ nth i rs [] = fmt_02x n
    end.

Lemma sym_sound t : forall args rs ws,
  rendered t args rs ->
  (forall p i, In p t -> (p = Hole i \/ p = HoleHex2 i) -> length (nth i rs []) = nth i ws 0%nat) ->
  format t args = Ok (map (denote rs) (sym t ws)).
Proof.
  induction t as [|p t IH]; intros args rs ws Hr Hw; [reflexivity|].
  cbn [format sym flat_map]. rewrite map_app.
  rewrite (IH args rs ws); [| intros q Hq; apply Hr; right; exact Hq
                            | intros q i Hq; apply Hw; right; exact Hq ].
  assert (Hp : render_piece args p = Ok (map (denote rs) (sym_piece ws p))).
  { pose proof (Hr p (or_introl eq_refl)) as H. pose proof (fun i => Hw p i (or_introl eq_refl)) as Hl.
    destruct p as [s|i|i]; cbn [render_piece sym_piece]; rewrite map_map; cbn [denote].
    - rewrite map_id. reflexivity.
    - destruct H as [s [-> <-]]. rewrite <- (Hl i) by auto. rewrite map_nth_seq. reflexivity.
    - destruct H as [n [-> <-]]. rewrite <- (Hl i) by auto. rewrite map_nth_seq. reflexivity. }
  rewrite Hp. reflexivity.
Qed.

Lemma format_app t1 : forall t2 args, format (t1 ++ t2) args =
  (do a <- format t1 args ;; do b <- format t2 args ;; Ok (a ++ b)).
Proof.
  induction t1 as [|q t1 IH]; intros t2 args.
  - cbn [app format bind]. destruct (format t2 args); reflexivity.
  - cbn [app format]. rewrite IH.
    destruct (render_piece args q), (format t1 args), (format t2 args); cbn [bind]; rewrite ?app_assoc; reflexivity.
Qed.

Fixpoint rendered_length (t : template) (lens : list nat) : nat :=
  match t with
  | [] => 0
  | Lit s :: r => length s + rendered_length r lens
  | Hole i :: r | HoleHex2 i :: r => nth i lens 0%nat + rendered_length r lens
  end.
Definition arg_len (a : farg) : nat := match a with AStr s => length s | AInt n => length (fmt_02x n) end.
Lemma format_length t : forall args p, format t args = Ok p -> length p = rendered_length t (map arg_len args).
Proof.
  induction t as [|q t IH]; intros args p H.
  - inversion H. reflexivity.
  - cbn [format] in H. destruct (render_piece args q) as [a|] eqn:Ea; cbn [bind] in H; [|discriminate].
    destruct (format t args) as [b|] eqn:Eb; cbn [bind] in H; [|discriminate]. inversion H; subst.
    rewrite app_length, (IH args b Eb). cbn [rendered_length].
    destruct q as [s|i|i]; cbn [render_piece] in Ea; [congruence| |];
      destruct (nth_error args i) as [[s|n]|] eqn:En; try discriminate; inversion Ea; subst;
      erewrite (nth_error_nth _ _ _ (map_nth_error arg_len _ _ En)); reflexivity.
Qed.

Definition lits_hexb (t : template) : bool := forallb (fun p => match p with Lit s => forallb is_hexchar s | _ => true end) t.
Definition strs_hex (args : list farg) : Prop := forall s, In (AStr s) args -> Forall (fun c => is_hexchar c = true) s.

Lemma sh_nil : strs_hex []. Proof. intros s []. Qed.
Lemma sh_str s rest : Forall (fun c => is_hexchar c = true) s -> strs_hex rest -> strs_hex (AStr s :: rest).
Proof. intros H Hr x [E|Hin]; [congruence|apply Hr, Hin]. Qed.
Lemma sh_int n rest : strs_hex rest -> strs_hex (AInt n :: rest).
Proof. intros Hr x [E|Hin]; [discriminate|apply Hr, Hin]. Qed.

Lemma format_hexs t : forall args p, lits_hexb t = true -> strs_hex args -> format t args = Ok p ->
  Forall (fun c => is_hexchar c = true) p.
Proof.
  induction t as [|q t IH]; intros args p Hl Ha H.
  - inversion H. constructor.
  - cbn [format] in H. apply andb_prop in Hl. destruct Hl as [Hq Hl].
    destruct (render_piece args q) as [a|] eqn:Ea; cbn [bind] in H; [|discriminate].
    destruct (format t args) as [b|] eqn:Eb; cbn [bind] in H; [|discriminate]. inversion H; subst.
    apply Forall_app. split; [|eapply IH; eauto].
    destruct q as [s|i|i]; cbn [render_piece] in Ea.
    + inversion Ea; subst. apply Forall_forall. apply forallb_forall. exact Hq.
    + destruct (nth_error args i) as [[s|n]|] eqn:En; try discriminate. inversion Ea; subst.
      apply Ha. eapply nth_error_In. exact En.
    + destruct (nth_error args i) as [[s|n]|] eqn:En; try discriminate. inversion Ea; subst. apply fmt_02x_hexs.
Qed.

Definition holes_typed (t : template) (args : list farg) : bool :=
  forallb (fun p => match p, match p with Lit _ => None | Hole i | HoleHex2 i => nth_error args i end with
                    | Lit _, _ | Hole _, Some (AStr _) | HoleHex2 _, Some (AInt _) => true
                    | _, _ => false
                    end) t.
Lemma format_total t args : holes_typed t args = true -> exists p, format t args = Ok p.
Proof.
  induction t as [|q t IH]; [eexists; reflexivity|]. intros H. apply andb_prop in H. destruct H as [Hq Ht].
  destruct (IH Ht) as [p Hp]. cbn [format]. rewrite Hp.
  destruct q as [s|i|i]; cbn [render_piece]; [eexists; reflexivity| |];
    destruct (nth_error args i) as [[s|n]|]; try discriminate; eexists; reflexivity.
Qed.
