(* byte layouts as concatenations of segments; a field is read back by slicing at the sums of the widths before it *)
Require Import AS.Base.Prelude AS.Base.Hex.

Definition widths (segs : list bytes) (ws : list nat) : Prop := map (@length N) segs = ws.
Definition upto (ws : list nat) (k : nat) : nat := list_sum (firstn k ws).

Lemma length_layout segs ws : widths segs ws -> length (concat segs) = list_sum ws.
Proof. intros <-. induction segs as [|s r IH]; [reflexivity|]. cbn [map list_sum concat]. rewrite app_length, IH. reflexivity. Qed.

Lemma upto_widths segs ws k : widths segs ws -> upto ws k = length (concat (firstn k segs)).
Proof. intros <-. unfold upto. rewrite firstn_map. symmetry. apply length_layout. reflexivity. Qed.

(* j whole segments from the k-th on.  In use ws is a literal and the bounds are numerals, so the hypothesis that ties
   bounds and segment(s) to the layout is closed by eq_refl; in slice_field and hex_field that also finds x (through Some),
   here x has to be given. *)
Lemma slice_fields {segs ws} (Hw : widths segs ws) k j lo hi {x} :
  (upto ws k, upto ws (k + j), concat (firstn j (skipn k segs))) = (lo, hi, x) -> pyslice lo hi (concat segs) = x.
Proof.
  intros [= <- <- <-]. rewrite !(upto_widths segs ws _ Hw), firstn_add, concat_app, app_length.
  replace (concat segs) with (concat (firstn k segs) ++ concat (firstn j (skipn k segs)) ++ concat (skipn j (skipn k segs))) at 1
    by (rewrite <- !concat_app, !firstn_skipn; reflexivity).
  apply pyslice_app_mid.
Qed.

Lemma concat_firstn_1 (segs : list bytes) : forall k, concat (firstn 1 (skipn k segs)) = nth k segs [].
Proof.
  induction segs as [|s r IH]; intros [|k]; try reflexivity; [apply app_nil_r|apply IH].
Qed.

Lemma slice_field {segs ws} (Hw : widths segs ws) k lo hi {x} :
  (upto ws k, upto ws (S k), nth_error segs k) = (lo, hi, Some x) -> pyslice lo hi (concat segs) = x.
Proof.
  intros [= <- <- Hx]. apply (slice_fields Hw k 1). rewrite Nat.add_1_r, concat_firstn_1. f_equal. apply nth_error_nth, Hx.
Qed.

Lemma hex_field {segs ws} (Hw : widths segs ws) k lo hi {x} :
  (2 * upto ws k, 2 * upto ws (S k), nth_error segs k)%nat = (lo, hi, Some x) ->
  pyslice lo hi (hexlify (concat segs)) = hexlify x.
Proof.
  intros [= <- <- Hx]. change (pyslice (2 * upto ws k) (2 * upto ws (S k)) (hexlify (concat segs)) = hexlify x).
  rewrite hexlify_slice. f_equal. apply (slice_field Hw k). rewrite Hx. reflexivity.
Qed.
