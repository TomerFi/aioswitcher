Require Import AS.Base.Prelude AS.Base.Float.
From Coq Require Import Uint63 PrimFloat FloatOps.
Open Scope Z_scope.

(* amps = watts / 220 to one decimal: the tenths t satisfy |w - 22 t| <= 11, for every 16-bit wattage.  Why: amps_tenths
   rounds x = 10 q to the nearest integer, half to even, so |t - x| <= 1/2 (round_close); and the float quotient q is so close
   to w / 220 that |w - 22 x| < 1; together |w - 22 t| < 12.  The second fact is about PrimFloat.div, which can only be run:
   that is the sweep.  With q = mi / 2^s it reads |w 2^s - 220 mi| < 2^s, and the checker tests it with ten binary places of
   w / 220 (g = mi / 2^(s-10): |1024 w - 220 g| < 1024 - 220), which keeps the arithmetic of the kernel's own reduction, what
   coqchk pays for, on numbers of some twenty bits. *)

Lemma round_close num d : 0 < d ->
  let fl := num / d in let r := num mod d in
  let t := if 2 * r <? d then fl else if d <? 2 * r then fl + 1 else if Z.even fl then fl else fl + 1 in
  Z.abs (2 * (t * d - num)) <= d.
Proof.
  intros Hd. cbv zeta. pose proof (Z.div_mod num d ltac:(lia)) as Hn. pose proof (Z.mod_pos_bound num d Hd) as Hr.
  set (fl := num / d) in *. set (r := num mod d) in *.
  destruct (Z.ltb_spec (2 * r) d); [nia|]. destruct (Z.ltb_spec d (2 * r)); [nia|]. destruct (Z.even fl); nia.
Qed.

Definition quot_okb (w : N) : bool :=
  let '(m, e) := PrimFloat.frshiftexp (PrimFloat.div (PrimFloat.of_uint63 (Uint63.of_Z (Z.of_N w))) (PrimFloat.of_uint63 220%uint63)) in
  let mi := Uint63.to_Z (PrimFloat.normfr_mantissa m) in
  let s := - (Uint63.to_Z e - FloatOps.shift - 53) in
  (10 <=? s) && (Z.abs (Z.shiftl (Z.of_N w) 10 - 220 * Z.shiftr mi (s - 10)) <? 804).

Lemma quot_okb_sound w : quot_okb w = true -> Z.abs (Z.of_N w - 22 * amps_tenths (Z.of_N w)) <= 11.
Proof.
  unfold quot_okb, amps_tenths. destruct (PrimFloat.frshiftexp _) as [m e].
  set (mi := Uint63.to_Z (PrimFloat.normfr_mantissa m)). set (ex := Uint63.to_Z e - FloatOps.shift - 53).
  intros [Hs%Z.leb_le Hv%Z.ltb_lt]%andb_prop.
  replace (0 <=? ex) with false by (symmetry; apply Z.leb_gt; lia).
  rewrite Z.shiftr_div_pow2, Z.shiftl_mul_pow2 in Hv by lia. change (2 ^ 10) with 1024 in Hv.
  set (P := 2 ^ (- ex - 10)) in *. assert (HP : 0 < P) by (apply Z.pow_pos_nonneg; lia).
  replace (2 ^ (- ex)) with (P * 1024) by (change 1024 with (2 ^ 10); unfold P; rewrite <- Z.pow_add_r by lia; f_equal; lia).
  pose proof (Z.div_mod mi P ltac:(lia)) as Hm. pose proof (Z.mod_pos_bound mi P HP) as Hl.
  set (g := mi / P) in *. set (lo := mi mod P) in *.
  pose proof (round_close (mi * 10) (P * 1024) ltac:(lia)) as Hc. cbv zeta in Hc |- *.
  (* (w - 22 t) d = (w d - 220 mi) - 22 (t d - 10 mi): below d in size by the test (mi = g P + lo), at most 11 d by round_close *)
  set (t := if _ <? _ then _ else _) in *. clearbody t. nia.
Qed.

Lemma amps_all : sweep quot_okb 16 0 = true.
Proof. vm_compute. reflexivity. Qed.

Theorem amps_ok w : (w < 65536)%N -> Z.abs (Z.of_N w - 22 * amps_tenths (Z.of_N w)) <= 11.
Proof. intros H. exact (quot_okb_sound w (sweep_all quot_okb 16 w amps_all H)). Qed.
Print Assumptions amps_ok.
