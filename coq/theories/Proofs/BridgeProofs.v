Require Import AS.Base.Prelude AS.Base.Hex AS.Base.Dec AS.Base.Utf8 AS.Gen.Extracted AS.Model.Messages AS.Model.Bridge AS.Spec.Encoders
  AS.Proofs.MessagesProofs.
Open Scope N_scope.

Definition wf_bytes (m : bytes) : Prop := Forall (fun b => b < 256) m.

Lemma eqs_true a s : eqs a s = true <-> a = s2l s.
Proof. unfold eqs. destruct (bytes_eq_dec a (s2l s)); split; congruence. Qed.

(* the gate; no byte need be below 256, since "fe" and "f0" are the hex of no other number *)
Lemma originator_spec m : is_switcher_originator m = true <->
  firstn 2 m = [254; 240] /\ (length m = 165 \/ length m = 168 \/ length m = 159)%nat.
Proof.
  unfold is_switcher_originator.
  change (pyslice 0 4 (hexlify m)) with (pyslice (2*0) (2*2) (hexlify m)). rewrite hexlify_slice. change (pyslice 0 2 m) with (firstn 2 m).
  assert (Hm : eqs (hexlify (firstn 2 m)) "fef0" = true <-> firstn 2 m = [254; 240]).
  { rewrite eqs_true. split; [|intros ->; reflexivity]. destruct (firstn 2 m) as [|a [|b [|c r]]]; try discriminate.
    intros H. injection H as A1 A2 B1 B2.
    assert (Ha : hexbyte a = hexbyte 254) by (unfold hexbyte at 1; rewrite A1, A2; reflexivity).
    assert (Hb : hexbyte b = hexbyte 240) by (unfold hexbyte at 1; rewrite B1, B2; reflexivity).
    apply hexbyte_inj in Ha, Hb; [subst; reflexivity|reflexivity..]. }
  split.
  - intros H. apply andb_prop in H. destruct H as [Hf Hl]. split; [apply Hm, Hf|].
    apply orb_prop in Hl. destruct Hl as [Hl|Hl]; [apply orb_prop in Hl; destruct Hl as [Hl|Hl]|]; apply Nat.eqb_eq in Hl; auto.
  - intros [Hf Hl]. apply andb_true_intro. split; [apply Hm, Hf|]. destruct Hl as [-> | [-> | ->]]; reflexivity.
Qed.

Lemma originator_intro m : firstn 2 m = [254; 240] -> (length m = 165 \/ length m = 168 \/ length m = 159)%nat ->
  is_switcher_originator m = true.
Proof. intros Hm Hl. apply originator_spec. split; assumption. Qed.

Lemma power_r_ok (c : bool) m : wf_bytes m -> (139 <= length m)%nat ->
  exists p, (if c then int16r (swap2 (pyslice 270 278 (hexlify m))) else Ok 0) = Ok p.
Proof.
  intros Hw Hl. destruct c; [|eexists; reflexivity].
  change (pyslice 270 278 (hexlify m)) with (pyslice (2*135) (2*139) (hexlify m)). rewrite hexlify_slice.
  assert (Hlen : length (pyslice 135 139 m) = 4%nat) by (apply pyslice_length, Hl).
  pose proof (Forall_pyslice _ 135 139 m Hw) as Hs.
  destruct (pyslice 135 139 m) as [|a [|b [|c [|d [|e r]]]]]; try discriminate.
  inversion Hs as [|? ? Ha Hs1]; subst. inversion Hs1 as [|? ? Hb _]; subst.
  exists (of_be [b; a]). unfold int16r.
  change (swap2 (hexlify [a; b; c; d])) with (hexlify [b; a]).
  rewrite int16_hexlify; [reflexivity|discriminate|repeat constructor; assumption].
Qed.

Lemma lookup3_value v t : lookup3 v t = lookup_value v t.
Proof. induction t as [|[[n x] d] t IH]; [reflexivity|]. cbn [lookup3 lookup_value]. unfold eqs. rewrite IH. destruct (bytes_eq_dec _ _); reflexivity. Qed.

Lemma decode_name name n : utf8_valid name = true -> last name 1 <> 0 ->
  (do s <- decode_str (name ++ repeat 0 n) ;; Ok (rstrip0 s)) = Ok name.
Proof. intros Hv Hl. unfold decode_str. rewrite utf8_valid_pad by exact Hv. cbn [bind]. rewrite rstrip0_pad by exact Hl. reflexivity. Qed.

(* an unknown model code in an accepted frame: the code before the F5 repair raises KeyError (the repaired code warns: C06_unknown_model) *)
Theorem unknown_model_legacy_raises lm m : is_switcher_originator m = true ->
  dt_by_hex (hexlify (pyslice 74 76 m)) = None -> parse_datagram lm true m = Raised KeyError.
Proof. intros Ho Hd. unfold parse_datagram. rewrite Hd. rewrite Ho. reflexivity. Qed.

(* every row of the DeviceType table: the model code is two bytes whose hex spelling finds the row back, and BREEZE is the
   one thermostat *)
Definition type_rows_okb : bool :=
  forallb (fun '(n, _, hx, p, cat) =>
    (length (unhex_str hx) =? 2)%nat &&
    match dt_by_hex (hexlify (unhex_str hx)) with
    | Some (n', p', c') => String.eqb n n' && N.eqb p p' && String.eqb cat c' | None => false end &&
    Bool.eqb (String.eqb n "BREEZE") (String.eqb cat "THERMOSTAT"))
    device_types.
Lemma type_rows_ok : type_rows_okb = true. Proof. vm_compute. reflexivity. Qed.
Lemma device_type_row n v hx p cat : In (n, v, hx, p, cat) device_types ->
  length (unhex_str hx) = 2%nat /\ dt_by_hex (hexlify (unhex_str hx)) = Some (n, p, cat) /\
  String.eqb n "BREEZE" = String.eqb cat "THERMOSTAT".
Proof.
  intros Hin. pose proof type_rows_ok as H. unfold type_rows_okb in H. rewrite forallb_forall in H.
  specialize (H _ Hin). cbv beta iota in H. rewrite !andb_true_iff in H. destruct H as [[H1 H2] H3].
  split; [apply Nat.eqb_eq, H1|]. split; [|apply eqb_prop, H3].
  destruct (dt_by_hex _) as [[[n' p'] c']|]; [|discriminate]. rewrite !andb_true_iff in H2. destruct H2 as [[A B] C].
  apply String.eqb_eq in A, C. apply N.eqb_eq in B. congruence.
Qed.

Lemma le_time_field m lo x : pyslice lo (lo + 8) (hexlify m) = hexlify (le32 x) -> x < 86400 ->
  le_time m lo = Ok (fmt_hhmmss x).
Proof. intros Hs Hx. exact (get_time_field (hexlify m) lo (lo + 8) x Hs Hx). Qed.

Lemma state_byte_on b : b < 256 -> eqs (hexlify [b]) "01" = (b =? 1).
Proof.
  intros Hb. destruct (N.eqb_spec b 1) as [->|Hn]; [reflexivity|]. destruct (eqs (hexlify [b]) "01") eqn:E; [|reflexivity].
  apply eqs_true in E. apply (hexlify_inj [b] [1]) in E; [congruence|repeat constructor; exact Hb|repeat constructor].
Qed.
