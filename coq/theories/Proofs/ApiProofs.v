(* C09 / C03 / C16: how many frames an operation writes and what it may raise, for every script of device replies *)
Require Import AS.Base.Prelude AS.Base.Hex AS.Base.Template AS.Base.Exchange AS.Gen.Extracted AS.Model.Messages AS.Model.Api
  AS.Proofs.Wire AS.Proofs.TotalityProofs AS.Spec.Sign AS.Proofs.HexSlices.
Open Scope N_scope.

Definition hexs (s : bytes) : Prop := Forall (fun c => is_hexchar c = true) s.
Lemma pyslice_hexs lo hi s : hexs s -> hexs (pyslice lo hi s).
Proof. apply Forall_pyslice. Qed.

Record wf_cfg (c : cfg) : Prop :=
  { wf_id : hexs (device_id c); wf_id_len : length (device_id c) = 6%nat;
    wf_key : hexs (device_key c); wf_key_len : length (device_key c) = 2%nat }.

Definition script_wf (script : list bytes) : Prop := Forall (Forall (fun b => b < 256)) script.

Lemma writes t args : lits_hexb t = true -> strs_hex args ->
  Nat.even (rendered_length t (map arg_len args)) = true -> (exists p, format t args = Ok p) ->
  exists bs, wire false t args false = Ok bs.
Proof.
  intros Hl Ha He [p Hf]. rewrite <- (format_length t args p Hf) in He.
  destruct (unhexlify_total p (format_hexs t args p Hl Ha Hf) He) as [b Hb].
  exists (b ++ sig b). rewrite (wire_format _ _ _ _ _ Hf). apply signed_bytes, Hb.
Qed.

Section Steps.
Variables (c : cfg) (now : N).
Hypothesis Hc : wf_cfg c.
Hypothesis Hn : now < 4294967296.

Lemma login_writes type2 : exists bs, forall st,
  login c type2 now st = (push bs st, Ok (logged_in (hexlify (le32 now)) (hd [] (replies st)))).
Proof.
  destruct (writes (login_template type2) [AStr (hexlify (le32 now)); AStr (credential c type2)]) as [bs Hw].
  - destruct type2; vm_compute; reflexivity.
  - apply sh_str; [apply hexlify_hexs, le32_bytes|]. apply sh_str; [destruct type2; apply Hc|apply sh_nil].
  - cbn [map arg_len]. destruct type2; cbn [credential]; rewrite ?(wf_id_len c Hc), ?(wf_key_len c Hc); reflexivity.
  - destruct type2; apply format_total; reflexivity.
  - exists bs. intros st. rewrite login_eq, (timestamp_hex_ok now Hn), Hw. reflexivity.
Qed.

(* the state-query step: the session is whatever the login reply held at bytes 8-11, possibly cut short *)
Lemma query_writes (type2 : bool) response : Forall (fun b => b < 256) response -> exists bs, forall st,
  send_template (if type2 then T_GET_STATE_PACKET2_TYPE2 else T_GET_STATE_PACKET_TYPE1)
    [AStr (pyslice 16 24 (hexlify response)); AStr (hexlify (le32 now)); AStr (device_id c)] false st
  = (push bs st, Ok (hd [] (replies st))).
Proof.
  intros Hr. rewrite session_is_bytes.
  destruct (writes (if type2 then T_GET_STATE_PACKET2_TYPE2 else T_GET_STATE_PACKET_TYPE1)
              [AStr (hexlify (pyslice 8 12 response)); AStr (hexlify (le32 now)); AStr (device_id c)]) as [bs Hw].
  - destruct type2; vm_compute; reflexivity.
  - apply sh_str; [apply hexlify_hexs, Forall_pyslice, Hr|]. apply sh_str; [apply hexlify_hexs, le32_bytes|].
    apply sh_str; [apply Hc|apply sh_nil].
  - cbn [map arg_len]. rewrite (wf_id_len c Hc), !hexlify_length.
    destruct type2; cbn [rendered_length nth T_GET_STATE_PACKET2_TYPE2 T_GET_STATE_PACKET_TYPE1]; rewrite !Nat.even_add, Nat.even_mul; reflexivity.
  - destruct type2; apply format_total; reflexivity.
  - exists bs. intros st. unfold send_template. rewrite send_template_gen_eq, Hw. reflexivity.
Qed.

Lemma query_exchange {A} (type2 : bool) (k : bytes -> M A) script : script_wf script ->
  (forall r st, (exists v, k r st = (st, Ok v)) \/ k r st = (st, Exc RuntimeError)) ->
  let '(fs, r) := Exchange.run (query c now type2 k) script in
  ((exists v, r = Ok v) \/ r = Exc RuntimeError) /\
  (hd [] script = [] -> length fs = 1%nat /\ r = Exc RuntimeError) /\
  (hd [] script <> [] -> length fs = 2%nat).
Proof.
  intros Hw Hk. unfold Exchange.run, query, bindM.
  destruct (login_writes type2) as [lf ->].
  cbn [logged_in lr_response lr_session lr_timestamp replies].
  destruct (hd [] script) as [|x r0] eqn:E0; cbn [successful].
  - split; [right; reflexivity|]. split; [auto|congruence].
  - destruct (query_writes type2 (x :: r0)) as [qf ->].
    { rewrite <- E0. apply Forall_hd; [constructor|exact Hw]. }
    destruct (Hk (hd [] (replies (push lf {| frames := []; replies := script |}))) (push qf (push lf {| frames := []; replies := script |})))
      as [[v ->]| ->]; cbn; (split; [eauto|]); split; congruence.
Qed.

End Steps.

Theorem get_state_exchange c now script : wf_cfg c -> now < 4294967296 -> script_wf script ->
  let '(fs, r) := Exchange.run (get_state c now) script in
  ((exists v, r = Ok v) \/ r = Exc RuntimeError) /\
  (hd [] script = [] -> length fs = 1%nat /\ r = Exc RuntimeError) /\
  (hd [] script <> [] -> length fs = 2%nat).
Proof.
  intros Hc Hn Hw. apply (query_exchange c now Hc Hn false _ script Hw). intros r st.
  destruct (parse_state_reply r) as [v|e] eqn:Ep.
  - destruct (successful r); [left; eexists; reflexivity|right; reflexivity].
  - right. destruct (parse_state_reply_exn _ _ Ep) as [-> | ->]; reflexivity.
Qed.
Print Assumptions get_state_exchange.

(* C09 / C16: on an empty login reply thermostat control writes the login frame only and raises RuntimeError, for every request *)
Theorem breeze_empty_login lg c now r state mode target fan swing update script :
  wf_cfg c -> now < 4294967296 -> hd [] script = [] ->
  let '(fs, res) := Exchange.run (control_breeze_device lg c now r state mode target fan swing update) script in
  length fs = 1%nat /\ res = Exc RuntimeError.
Proof.
  intros Hc Hn He. unfold Exchange.run, control_breeze_device, bindM.
  destruct (login_writes c now Hc Hn true) as [lf ->].
  cbn [logged_in lr_response replies]. rewrite He. split; reflexivity.
Qed.
