(* C09: the type-2 state queries, for every script of device replies *)
Require Import AS.Base.Prelude AS.Base.Exchange AS.Model.Api AS.Proofs.Wire AS.Proofs.ApiProofs.
Open Scope N_scope.

Definition wrapped (e : exn) : bool := (is_key_error e || is_value_error e)%bool.

Lemma wrap_parse_outcome {A} (r : result A) st : (forall e, r = Exc e -> wrapped e = true) ->
  (exists v, wrap_parse r st = (st, Ok v)) \/ wrap_parse r st = (st, Exc RuntimeError).
Proof.
  intros H. unfold wrap_parse. destruct r as [a|e]; [left; eexists; reflexivity|].
  specialize (H e eq_refl). unfold wrapped in H. rewrite H. right. reflexivity.
Qed.

Section Query.
Variable c : cfg.
Variable now : N.
Hypothesis Hc : wf_cfg c.
Hypothesis Hn : now < 4294967296.

Lemma type2_query_exchange {A} (parse : bytes -> result A) script : script_wf script ->
  (forall r e, parse r = Exc e -> wrapped e = true) ->
  let '(fs, r) := Exchange.run (query c now true (fun s => perform r <- wrap_parse (parse s) ;; ret (s, r))) script in
  ((exists v, r = Ok v) \/ r = Exc RuntimeError) /\
  (hd [] script = [] -> length fs = 1%nat /\ r = Exc RuntimeError) /\
  (hd [] script <> [] -> length fs = 2%nat).
Proof.
  intros Hw Hparse. apply (query_exchange c now Hc Hn true _ script Hw). intros r st. unfold bindM.
  destruct (wrap_parse_outcome (parse r) st (Hparse r)) as [[v ->]| ->]; [left; eexists; reflexivity|right; reflexivity].
Qed.
End Query.
