(* C02, create_schedule against the Spec: the day set and the 11-byte record *)
Require Import AS.Base.Prelude AS.Base.Hex AS.Base.Template AS.Gen.Extracted AS.Spec.FrameLayout AS.Spec.FrameSpec
  AS.Model.ScheduleTools AS.Proofs.LayoutMatch AS.Proofs.WeekdayProofs AS.Proofs.OpsFrames.
Open Scope N_scope.

Lemma nodup_same l : nodup_nat l = nodupb l.
Proof. induction l as [|x l IH]; [reflexivity|]. cbn [nodup_nat nodupb]. rewrite IH. reflexivity. Qed.
Lemma sum_bits_mask l : sum_bits l = mask_of l.
Proof.
  unfold sum_bits. assert (H : forall a, fold_left (fun a d => a + day_bit_rep d) l a = a + mask_of l).
  { induction l as [|x l IH]; intros a; cbn [fold_left mask_of fold_right]; [lia|]. rewrite IH. change (day_bit x) with (day_bit_rep x). unfold mask_of. lia. }
  rewrite H. lia.
Qed.

Definition days_list (d : days_arg) (l : list nat) : Prop := d = ASeq l \/ (d = ASet l /\ NoDup l).

Lemma days_enc d l : days_list d l -> (forall x, In x l -> (x < n_days)%nat) ->
  (match d with ASet [] | ASeq [] => Ok NON_RECURRING_SCHEDULE | _ => weekdays_to_hexadecimal d end) =
  if nodup_nat l then Ok (hexlify [mask_of l]) else Exc ValueError.
Proof.
  intros Hd Hb. rewrite nodup_same. destruct l as [|a l]; [destruct Hd as [->|[-> _]]; reflexivity|].
  change (hexlify [mask_of (a :: l)]) with (hexbyte (mask_of (a :: l)) ++ []). rewrite app_nil_r, <- sum_bits_mask.
  destruct (nodupb (a :: l)) eqn:E.
  - apply nodupb_NoDup in E. destruct Hd as [->|[-> _]]; [apply weekdays_encode_seq|apply weekdays_encode_set]; (discriminate || assumption).
  - destruct Hd as [->|[-> Hn]]; [|apply nodupb_NoDup in Hn; congruence].
    apply weekdays_reject_dup; [discriminate|]. intros Hn. apply nodupb_NoDup in Hn. congruence.
Qed.

Lemma mask_byte l : nodup_nat l = true -> (forall x, In x l -> (x < n_days)%nat) -> mask_of l < 256.
Proof.
  intros Hn Hb. destruct l as [|a l]; [reflexivity|]. rewrite nodup_same in Hn. apply nodupb_NoDup in Hn.
  rewrite <- sum_bits_mask. apply (core_facts (a :: l) ltac:(discriminate) Hn Hb).
Qed.

Lemma record_is_spec m ts te : m < 256 ->
  exists recb, render_layout L_schedule_record [arg_of_bytes [m]; arg_of_bytes (le32 ts); arg_of_bytes (le32 te)] = Some recb /\
    format T_SCHEDULE_CREATE_DATA_FORMAT [AStr (hexlify [m]); AStr (hexlify (le32 ts)); AStr (hexlify (le32 te))] = Ok (hexlify recb).
Proof.
  intros Hm. exists ([1] ++ [m] ++ [1] ++ le32 ts ++ le32 te).
  assert (E : format T_SCHEDULE_CREATE_DATA_FORMAT [AStr (hexlify [m]); AStr (hexlify (le32 ts)); AStr (hexlify (le32 te))]
              = Ok (hexlify ([1] ++ [m] ++ [1] ++ le32 ts ++ le32 te))).
  { rewrite record_text, !hexlify_app, app_nil_r. reflexivity. }
  split; [|exact E].
  unfold render_layout, arg_of_bytes. rewrite <- (matches_format _ _ _ M_record), E.
  apply unhexlify_hexlify. repeat (apply Forall_app; split); try apply le32_bytes; repeat constructor; assumption.
Qed.
