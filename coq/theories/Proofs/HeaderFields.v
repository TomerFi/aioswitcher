(* C03: every command frame of the Spec carries the session, the timestamp and the device id it was built from *)
Require Import AS.Base.Prelude AS.Base.Hex AS.Base.Template AS.Base.Layout AS.Spec.FrameLayout AS.Spec.FrameSpec
  AS.Proofs.HexSlices AS.Proofs.FrameProofs.
Open Scope N_scope.

(* a layout that begins with fixed bytes and byte arguments renders to a text that begins with those bytes *)
Definition field_is (args : list farg) (f : sfield) (seg : bytes) : Prop :=
  match f with SB bs => bs = seg | SA i => nth_error args i = Some (arg_of_bytes seg) | _ => False end.

Lemma render_prefix args restL : forall pre segs b, Forall2 (field_is args) pre segs -> Forall (fun b => b < 256) (concat segs) ->
  render_layout (pre ++ restL) args = Some b -> exists rb, b = concat segs ++ rb.
Proof.
  unfold render_layout. intros pre segs b HF HB.
  replace (spec_template (pre ++ restL)) with (spec_template pre ++ spec_template restL) by (symmetry; apply map_app).
  rewrite format_app.
  assert (Hpre : format (spec_template pre) args = Ok (hexlify (concat segs))).
  { clear HB. induction HF as [|f seg pre segs Hf _ IH]; [reflexivity|].
    cbn [spec_template map format concat]. fold (spec_template pre). rewrite IH, hexlify_app.
    unfold field_is in Hf. destruct f as [bs|h|i|i]; try contradiction; cbn [render_piece]; [subst bs|rewrite Hf]; reflexivity. }
  rewrite Hpre. destruct (format (spec_template restL) args) as [rest|]; cbn [bind]; [|discriminate]. intros H.
  assert (He : Nat.even (length (hexlify (concat segs))) = true) by (rewrite hexlify_length, Nat.even_mul; reflexivity).
  destruct (unhexlify_app_inv _ _ _ He H) as (x & rb & Hx & _ & ->).
  rewrite (unhexlify_hexlify _ HB) in Hx. injection Hx as <-. exists rb. reflexivity.
Qed.

Lemma zeros_b n : Forall (fun b => b < 256) (zeros n). Proof. apply Forall_repeat. reflexivity. Qed.

(* Any layout whose leading fields spell the 40-byte header - magic, length, protocol word and command code; session;
   sub-code, 01 00, 8 zero; timestamp; 10 zero, f0 fe - and then a third field of any length: the device id of a command
   frame, the credential of a login frame.  How the layout cuts these bytes into fields is left open (segs). *)
Section Header.
Variables (len : N) (proto cmd sub sess idb : bytes) (now : N).
Hypothesis Lp : length proto = 2%nat.  Hypothesis Lc : length cmd = 2%nat.  Hypothesis Lsub : length sub = 2%nat.
Hypothesis Ls : length sess = 4%nat.
Hypothesis Bp : Forall (fun b => b < 256) proto.  Hypothesis Bc : Forall (fun b => b < 256) cmd.  Hypothesis Bsub : Forall (fun b => b < 256) sub.
Hypothesis Bs : Forall (fun b => b < 256) sess.   Hypothesis Bi : Forall (fun b => b < 256) idb.
Variables (pre restL : list sfield) (args : list farg) (segs : list bytes).
Hypothesis Hpre : Forall2 (field_is args) pre segs.
Hypothesis Hsegs : concat segs =
  concat [[254; 240] ++ le16 len ++ proto ++ cmd; sess; sub ++ [1; 0] ++ zeros 8; le32 now; zeros 10 ++ [240; 254]; idb].

Lemma body_fields b : render_layout (pre ++ restL) args = Some b ->
  pyslice 8 12 b = sess /\ pyslice 24 28 b = le32 now /\ pyslice 40 (40 + length idb) b = idb /\ (40 + length idb <= length b)%nat.
Proof.
  intros H. destruct (render_prefix args restL pre segs b Hpre) as [rb ->]; [|exact H|]; rewrite Hsegs.
  - repeat (apply Forall_app; split); auto using le16_bytes, le32_bytes, zeros_b; repeat constructor.
  - set (B0 := [254; 240] ++ le16 len ++ proto ++ cmd). set (B1 := sub ++ [1; 0] ++ zeros 8). set (B2 := zeros 10 ++ [240; 254]).
    assert (Hw : widths [B0; sess; B1; le32 now; B2; idb; rb] [8; 4; 12; 4; 12; length idb; length rb]%nat)
      by (unfold widths, B0, B1, B2; cbn [map]; rewrite !app_length, Lp, Lc, Lsub, Ls; reflexivity).
    replace (concat [B0; sess; B1; le32 now; B2; idb] ++ rb) with (concat [B0; sess; B1; le32 now; B2; idb; rb])
      by (cbn [concat]; rewrite <- !app_assoc, app_nil_r; reflexivity).
    split; [exact (slice_field Hw 1 8 12 eq_refl)|]. split; [exact (slice_field Hw 3 24 28 eq_refl)|].
    split; [|rewrite (length_layout _ _ Hw); cbn [list_sum fold_right]; lia].
    apply (slice_field Hw 5). unfold upto. cbn [firstn list_sum fold_right nth_error]. rewrite !Nat.add_0_r. reflexivity.
Qed.

(* sealing touches bytes 2-3 and appends: the three fields stay where they are *)
Lemma header_fields CF : frame_of (pre ++ restL) args = Frame CF ->
  pyslice 8 12 CF = sess /\ pyslice 24 28 CF = le32 now /\ pyslice 40 (40 + length idb) CF = idb.
Proof.
  unfold frame_of. destruct (render_layout (pre ++ restL) args) as [b|] eqn:E; [|discriminate]. intros [= <-].
  destruct (body_fields b E) as [F1 [F2 [F3 Hlen]]]. rewrite !seal_keeps by lia. auto.
Qed.
End Header.

Theorem frame_fields (len : N) (proto cmd sub sess idb : bytes) (now : N) (restL : list sfield) (args : list farg) :
  length proto = 2%nat -> length cmd = 2%nat -> length sub = 2%nat -> length sess = 4%nat -> length idb = 3%nat ->
  Forall (fun b => b < 256) proto -> Forall (fun b => b < 256) cmd -> Forall (fun b => b < 256) sub ->
  Forall (fun b => b < 256) sess -> Forall (fun b => b < 256) idb -> forall CF,
  frame_of (header len proto cmd sub ++ SA 2 :: restL) (hdr_args sess now idb ++ args) = Frame CF ->
  pyslice 8 12 CF = sess /\ pyslice 24 28 CF = le32 now /\ pyslice 40 43 CF = idb.
Proof.
  intros Lp Lc Lsub Ls Li Bp Bc Bsub Bs Bi CF H. replace 43%nat with (40 + length idb)%nat by (rewrite Li; reflexivity).
  eapply (header_fields len proto cmd sub sess idb now Lp Lc Lsub Ls Bp Bc Bsub Bs Bi (header len proto cmd sub ++ [SA 2]) restL
            (hdr_args sess now idb ++ args));
    [repeat constructor|reflexivity|rewrite <- app_assoc; exact H].
Qed.
Print Assumptions frame_fields.

(* the two login frames: zero session, the timestamp, then the credential (key for type 1, device id for type 2).  The
   first field of a login header is that of a command header, four zero bytes and the command header's third field in
   one; what follows the credential plays no part. *)
Theorem login_frame_fields (len : N) (proto cmd sub cred tail : bytes) (now : N) :
  length proto = 2%nat -> length cmd = 2%nat -> length sub = 2%nat ->
  Forall (fun b => b < 256) proto -> Forall (fun b => b < 256) cmd -> Forall (fun b => b < 256) sub ->
  Forall (fun b => b < 256) cred -> forall LF,
  frame_of (login_header len proto cmd sub ++ [SA 1; SB tail]) [arg_of_bytes (le32 now); arg_of_bytes cred] = Frame LF ->
  pyslice 8 12 LF = [0; 0; 0; 0] /\ pyslice 24 28 LF = le32 now /\ pyslice 40 (40 + length cred) LF = cred.
Proof.
  intros Lp Lc Lsub Bp Bc Bsub Bcred LF H.
  eapply (header_fields len proto cmd sub (zeros 4) cred now Lp Lc Lsub eq_refl Bp Bc Bsub (zeros_b 4) Bcred
            (login_header len proto cmd sub ++ [SA 1]) [SB tail] [arg_of_bytes (le32 now); arg_of_bytes cred]);
    [repeat constructor|cbn [concat]; rewrite <- !app_assoc; reflexivity|rewrite <- app_assoc; exact H].
Qed.
Print Assumptions login_frame_fields.
