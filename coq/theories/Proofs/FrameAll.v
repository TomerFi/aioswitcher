(* Call sites whose template has string holes only and whose arguments have known widths: one boolean fact about the
   template, decided on the regenerated constants, gives the frame for every instance of the arguments - what is written,
   that it is well formed (C01), and that it is the Spec's frame for any layout the template matches (C02). *)
Require Import AS.Base.Prelude AS.Base.Hex AS.Base.Layout AS.Base.Template AS.Spec.Frame AS.Spec.FrameSpec
  AS.Model.DeviceTools AS.Proofs.Wire AS.Proofs.FrameProofs AS.Proofs.LayoutMatch.
Open Scope N_scope.

Definition hexs (s : bytes) : Prop := Forall (fun c => is_hexchar c = true) s.

(* the Spec's frame for a layout is the sealed text of any template that matches it *)
Lemma frame_of_seal T L args p b : matches T L = true -> format T args = Ok p -> unhexlify p = Some b ->
  frame_of L args = Frame (seal b).
Proof. intros Hm Hf Hb. unfold frame_of, render_layout. rewrite <- (matches_format T L args Hm), Hf, Hb. reflexivity. Qed.

(* conversely, a well-formed frame that a call site has written is the sealed text *)
Lemma written_text (fl : bool) p bs : wire_text false p fl = Ok bs -> frame_okb bs = true ->
  (fl = true -> pyslice 0 4 p = s2l "fef0") -> exists b, unhexlify p = Some b /\ bs = seal b.
Proof.
  intros Hw Hk Hmagic. destruct fl.
  - destruct (text_sealed_unhex false p bs Hw) as (b & Hb & Hn). exists b. split; [exact Hb|].
    rewrite (text_sealed true p b Hb) in Hw by auto. congruence.
  - unfold wire_text in Hw. cbn [bind] in Hw. destruct (unhexlify p) as [b|] eqn:Hb.
    2:{ unfold sign_packet_with_crc_key in Hw. rewrite Hb in Hw. discriminate. }
    rewrite (signed_bytes p b Hb) in Hw. injection Hw as <-. exists b. split; [reflexivity|].
    apply frame_okb_signed in Hk. destruct Hk as (_ & _ & H24 & _). symmetry. apply seal_fixed, H24.
Qed.

Theorem written_is_spec T L args (fix_len : bool) p p' out bs :
  matches T L = true -> format T args = Ok p ->
  (if fix_len then set_message_length false p else Ok p) = Ok p' ->
  sign_packet_with_crc_key p' = Ok out -> unhexlify out = Some bs -> frame_okb bs = true ->
  (fix_len = true -> pyslice 0 4 p = s2l "fef0") ->
  frame_of L args = Frame bs.
Proof.
  intros Hm Hf Hp Hs Hu Hk Hmagic. destruct (written_text fix_len p bs) as [b [Hb ->]]; try assumption.
  - unfold wire_text. rewrite Hp. cbn [bind]. rewrite Hs. cbn [bind]. rewrite Hu. reflexivity.
  - exact (frame_of_seal T L args p b Hm Hf Hb).
Qed.
Print Assumptions written_is_spec.

Definition holes_okb (t : template) (n : nat) : bool :=
  forallb (fun p => match p with Lit _ => true | Hole i => (i <? n)%nat | HoleHex2 _ => false end) t.

Lemma widths_nth rs ws i : widths rs ws -> length (nth i rs []) = nth i ws 0%nat.
Proof. intros <-. change 0%nat with (length (@nil N)). apply eq_sym, map_nth. Qed.
Lemma widths_length rs ws : widths rs ws -> length rs = length ws.
Proof. intros <-. symmetry. apply map_length. Qed.

(* arguments behind those the template uses do not matter *)
Lemma format_strs_app t ws rs rest : holes_okb t (length ws) = true -> widths rs ws ->
  format t (map AStr rs ++ rest) = Ok (map (denote rs) (sym t ws)).
Proof.
  intros Hh Hw. unfold holes_okb in Hh. rewrite forallb_forall in Hh. apply sym_sound.
  - intros p Hp. specialize (Hh p Hp). destruct p as [s|i|i]; [exact I| |discriminate].
    apply Nat.ltb_lt in Hh. rewrite <- (widths_length rs ws Hw) in Hh. exists (nth i rs []). split; [|reflexivity].
    rewrite nth_error_app1 by (rewrite map_length; exact Hh). apply map_nth_error, nth_error_nth', Hh.
  - intros p i _ _. apply widths_nth, Hw.
Qed.
Lemma format_strs t ws rs : holes_okb t (length ws) = true -> widths rs ws ->
  format t (map AStr rs) = Ok (map (denote rs) (sym t ws)).
Proof. rewrite <- (app_nil_r (map AStr rs)). apply format_strs_app. Qed.

Lemma U_in_range (t : template) (ws : list nat) (rs : list bytes) : widths rs ws ->
  forall i k, In (U i k) (sym t ws) -> (k < length (nth i rs []))%nat.
Proof.
  intros Hw i k Hin. apply in_flat_map in Hin. destruct Hin as [p [Hp Hin]].
  rewrite (widths_nth rs ws i Hw).
  destruct p as [s|j|j]; cbn [sym_piece] in Hin; apply in_map_iff in Hin; destruct Hin as [x [Hx Hs]]; [discriminate| |];
    injection Hx as <- <-; apply in_seq in Hs; lia.
Qed.

(* where the length is rewritten by set_message_length the template need not carry it, but the frame must fit 16 bits *)
Definition c01_cells_ok2 (cs : list cell) : bool :=
  let n := length cs in
  Nat.even n && (80 <=? n)%nat && (N.of_nat (n / 2 + 4) <? 65536) &&
  forallb (fun c => match c with K x => is_hexchar x | U _ _ => true end) cs &&
  known_at cs 0 (s2l "fef0") && known_at cs 76 (s2l "f0fe").

Lemma cells_frame2 cs rs : c01_cells_ok2 cs = true -> args_hex rs ->
  (forall i k, In (U i k) cs -> (k < length (nth i rs []))%nat) ->
  exists b, unhexlify (map (denote rs) cs) = Some b /\ wire_text false (map (denote rs) cs) true = Ok (seal b) /\
            frame_okb (seal b) = true.
Proof.
  intros [[[[[He Hl%Nat.leb_le]%andb_prop Hn%N.ltb_lt]%andb_prop Hx]%andb_prop K0]%andb_prop K76]%andb_prop Hr Hu.
  apply text_frame; rewrite ?map_length; try assumption.
  - apply denote_hex; assumption.
  - exact (known_at_sound rs cs 0 (s2l "fef0") K0).
  - exact (known_at_sound rs cs 76 (s2l "f0fe") K76).
Qed.

(* the two premises in the form the call sites have them: one boolean about the template and the widths of its arguments,
   and the arguments as hex texts of those widths *)
Definition hexw (n : nat) (s : bytes) : Prop := hexs s /\ length s = n.
Definition site_okb (fl : bool) (t : template) (ws : list nat) : bool :=
  holes_okb t (length ws) && (if fl then c01_cells_ok2 (sym t ws) else c01_cells_ok (sym t ws)).

Lemma hexw_args ws rs : Forall2 hexw ws rs -> widths rs ws /\ args_hex rs.
Proof.
  induction 1 as [|w r ws rs [Hx Hl] _ [IHw IHx]]; [split; [reflexivity|constructor]|].
  split; [unfold widths in *; cbn [map]; congruence|constructor; assumption].
Qed.

Theorem template_site (fl : bool) t ws rs : site_okb fl t ws = true -> Forall2 hexw ws rs ->
  exists b, wire false t (map AStr rs) fl = Ok (seal b) /\ frame_okb (seal b) = true /\
            forall L, matches t L = true -> frame_of L (map AStr rs) = Frame (seal b).
Proof.
  intros [Hh Hc]%andb_prop [Hw Hx]%hexw_args. pose proof (format_strs t ws rs Hh Hw) as Hf. rewrite (wire_format _ _ _ _ _ Hf).
  assert (H : exists b, unhexlify (map (denote rs) (sym t ws)) = Some b /\
                        wire_text false (map (denote rs) (sym t ws)) fl = Ok (seal b) /\ frame_okb (seal b) = true)
    by (destruct fl; [apply cells_frame2|apply cells_frame]; try assumption; apply U_in_range, Hw).
  destruct H as [b [Hb [Hwr Hk]]]. exists b. split; [exact Hwr|]. split; [exact Hk|].
  intros L Hm. exact (frame_of_seal t L _ _ b Hm Hf Hb).
Qed.

Lemma hexlify_hexw b n : Forall (fun x => x < 256) b -> length b = n -> hexw (2 * n) (hexlify b).
Proof. intros Hb <-. split; [apply hexlify_hexs, Hb|apply hexlify_length]. Qed.

Lemma hexbyte_hexs n : n < 256 -> hexw 2 (hexbyte n).
Proof. intros H. exact (hexlify_hexw [n] 1 (Forall_cons n H (Forall_nil _)) eq_refl). Qed.
