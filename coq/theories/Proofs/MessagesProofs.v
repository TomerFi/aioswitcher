Require Import AS.Base.Prelude AS.Base.Hex AS.Base.Dec AS.Gen.Extracted AS.Model.Messages AS.Spec.Encoders.
Open Scope N_scope.

(* int(h[2:4] + h[0:2], 16) reads a little-endian 16-bit field, whatever follows its four characters *)
Lemma int16_swap2_le16_pad x f : x < 65536 -> int16 (swap2 (hexlify (le16 x ++ f))) = Some x.
Proof.
  intros H. change (swap2 (hexlify (le16 x ++ f))) with (hexlify [x / 256 mod 256; x mod 256]).
  rewrite int16_hexlify by (try discriminate; repeat constructor; apply N.mod_lt; discriminate). rewrite of_be_16 by exact H. reflexivity.
Qed.
Lemma int16_swap2_le16 x : x < 65536 -> int16 (swap2 (hexlify (le16 x))) = Some x.
Proof. exact (int16_swap2_le16_pad x []). Qed.

(* mid and hi are variables of their own so that the numerals of a goal match as they stand; eq_refl closes the equations *)
Lemma swap2_slice lo mid hi hi' h : mid = (lo + 2)%nat -> hi = (lo + 4)%nat -> (hi <= hi')%nat ->
  swap2 (pyslice lo hi' h) = pyslice mid hi h ++ pyslice lo mid h.
Proof. intros -> -> H. unfold swap2. rewrite (pyslice_pyslice 2 4 lo hi' (lo + 2) (lo + 4)), (pyslice_pyslice 0 2 lo hi' lo (lo + 2)) by lia. reflexivity. Qed.

Lemma le16_chars h lo mid hi x : mid = (lo + 2)%nat -> hi = (lo + 4)%nat -> pyslice lo hi h = hexlify (le16 x) -> x < 65536 ->
  int16 (pyslice mid hi h ++ pyslice lo mid h) = Some x.
Proof. intros Hm Hh Hs Hx. rewrite <- (swap2_slice lo mid hi hi h Hm Hh (le_n _)), Hs. apply int16_swap2_le16, Hx. Qed.
Lemma le16_field h lo hi hi' x : hi = (lo + 4)%nat -> (hi <= hi')%nat -> pyslice lo hi h = hexlify (le16 x) -> x < 65536 ->
  int16r (swap2 (pyslice lo hi' h)) = Ok x.
Proof.
  intros Hh Hl Hs Hx. unfold int16r. rewrite (swap2_slice lo (lo + 2) hi hi' h eq_refl Hh Hl), (le16_chars h lo _ hi x eq_refl Hh Hs Hx).
  reflexivity.
Qed.

Lemma swap4_le32 x : swap4 (hexlify (le32 x)) = hexlify (be32 x).
Proof. reflexivity. Qed.

Lemma int16_swap4_le32 x : x < 4294967296 -> int16 (swap4 (hexlify (le32 x))) = Some x.
Proof.
  intros H. rewrite swap4_le32, int16_hexlify by (try apply be32_bytes; discriminate). rewrite of_be_be32 by exact H. reflexivity.
Qed.

Lemma get_time_field hex lo hi x : pyslice lo hi hex = hexlify (le32 x) -> x < 86400 ->
  get_time hex lo hi = Ok (fmt_hhmmss x).
Proof.
  intros Hs Hx. unfold get_time, int16r. rewrite Hs, int16_swap4_le32 by lia. cbn [of_option bind]. unfold seconds_to_iso_time.
  replace (x / 3600 <? 24) with true; [reflexivity|].
  symmetry. apply N.ltb_lt. apply N.div_lt_upper_bound; lia.
Qed.

Lemma pad0_length w s : (length s <= w)%nat -> length (pad0 w s) = w.
Proof. intros H. unfold pad0. rewrite app_length, repeat_length. lia. Qed.

(* enum tables: a row's value finds the row back (finds_back); a hex value is the spelling of the w bytes it decodes to (spelt w) *)
Definition finds_back (t : list (string * string * string)) : bool :=
  forallb (fun '(n, v, _) => match lookup_value (s2l v) t with Some n' => String.eqb n n' | None => false end) t.
Lemma lookup_member t n v d : finds_back t = true -> In (n, v, d) t -> lookup_value (s2l v) t = Some n.
Proof.
  unfold finds_back. rewrite forallb_forall. intros H Hin. specialize (H _ Hin). cbv beta iota in H.
  destruct (lookup_value (s2l v) t) as [n'|]; [|discriminate]. apply String.eqb_eq in H. congruence.
Qed.
Definition spelt (w : nat) (t : list (string * string * string)) : bool :=
  forallb (fun '(_, v, _) => (if bytes_eq_dec (hexlify (unhex_str v)) (s2l v) then true else false) && (length (unhex_str v) =? w)%nat) t.
Lemma spelt_member w t n v d : spelt w t = true -> In (n, v, d) t -> hexlify (unhex_str v) = s2l v /\ length (unhex_str v) = w.
Proof.
  unfold spelt. rewrite forallb_forall. intros H Hin. specialize (H _ Hin).
  apply andb_prop in H. destruct H as [H1 H2]. split; [|apply Nat.eqb_eq, H2]. destruct (bytes_eq_dec _ _); [assumption|discriminate].
Qed.
Lemma modes_find : finds_back thermostat_modes = true. Proof. vm_compute. reflexivity. Qed.
Lemma fans_find : finds_back fan_levels = true. Proof. vm_compute. reflexivity. Qed.
Lemma directions_find : finds_back shutter_directions = true. Proof. vm_compute. reflexivity. Qed.
Lemma modes_spelt : spelt 1 thermostat_modes = true. Proof. vm_compute. reflexivity. Qed.
Lemma directions_spelt : spelt 2 shutter_directions = true. Proof. vm_compute. reflexivity. Qed.
