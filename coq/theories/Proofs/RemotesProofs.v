Require Import AS.Base.Prelude AS.Model.Remotes.
Local Open Scope nat_scope.

(* one turn of the pop loop of _lookup_key_in_irset, read from the key's end *)
Lemma lookup_key_snoc present P x : P <> [] ->
  lookup_key present (P ++ [x]) = if present (concat (P ++ [x])) then P ++ [x] else lookup_key present P.
Proof.
  intros HP. unfold lookup_key. rewrite rev_app_distr. cbn [rev app].
  destruct (rev P) as [|y r] eqn:E; [apply (f_equal (@rev _)) in E; rewrite rev_involutive in E; contradiction|].
  cbn [lookup]. rewrite <- E. cbn [rev]. rewrite rev_involutive. destruct (present _); [|reflexivity].
  cbn [rev]. rewrite rev_involutive. reflexivity.
Qed.
Lemma lookup_key_hit present (K : list bytes) : K <> [] -> present (concat K) = true -> lookup_key present K = K.
Proof.
  destruct K as [|x P _] using rev_ind; [contradiction|]. intros _ H. destruct P; [reflexivity|].
  rewrite lookup_key_snoc by discriminate. rewrite H. reflexivity.
Qed.

