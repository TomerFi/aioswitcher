Require Import AS.Base.Prelude AS.Base.Hex AS.Base.Utf8 AS.Base.Layout AS.Gen.Extracted AS.Model.Bridge AS.Spec.Encoders
  AS.Proofs.MessagesProofs AS.Proofs.BridgeProofs.
Open Scope N_scope.

Record breeze_wf (f1 id f2 f3 f4 ip mac f5 f6 remote f7 name : bytes) : Prop :=
  { w_f1 : length f1 = 16%nat; w_id : length id = 3%nat; w_f2 : length f2 = 19%nat; w_f3 : length f3 = 1%nat;
    w_f4 : length f4 = 1%nat; w_ip : length ip = 4%nat; w_mac : length mac = 6%nat; w_f5 : length f5 = 48%nat;
    w_f6 : length f6 = 2%nat; w_remote : length remote = 8%nat; w_f7 : length f7 = 17%nat;
    w_name_len : (length name <= 32)%nat; w_name_valid : utf8_valid name = true; w_name_last : last name 1 <> 0;
    w_remote_valid : utf8_valid remote = true }.

Theorem breeze_roundtrip (f1 id f2 : bytes) (key : N) (f3 name f4 ip mac f5 : bytes) (temp10 : N) (on : bool)
    (mode_name mode_value mode_disp : string) (mode_byte target : N) (fan_name fan_value fan_disp : string)
    (fan : N) (swing : bool) (f6 remote f7 : bytes) :
  breeze_wf f1 id f2 f3 f4 ip mac f5 f6 remote f7 name ->
  wf_bytes (concat (breeze_segs f1 id f2 key f3 (name ++ repeat 0 (32 - length name)) f4 ip mac f5 temp10
                      (if on then 1 else 0) mode_byte target (16 * fan + (if swing then 1 else 0)) f6 remote f7)) ->
  temp10 < 65536 -> target < 256 -> fan < 16 ->
  In (mode_name, mode_value, mode_disp) thermostat_modes -> hexlify [mode_byte] = s2l mode_value -> mode_byte < 256 ->
  In (fan_name, fan_value, fan_disp) fan_levels -> [hexdigit fan] = s2l fan_value ->
  parse_datagram false false
    (concat (breeze_segs f1 id f2 key f3 (name ++ repeat 0 (32 - length name)) f4 ip mac f5 temp10
               (if on then 1 else 0) mode_byte target (16 * fan + (if swing then 1 else 0)) f6 remote f7)) =
  Delivered (DThermostat "BREEZE" on (hexlify id) (hexlify [key]) (dotted ip) (mac_of mac) name mode_name
               temp10 target fan_name swing remote).
Proof.
  intros W Hwf Ht Htg Hfan Hmode Hmv Hmb Hfn Hfv.
  set (segs := breeze_segs f1 id f2 key f3 (name ++ repeat 0 (32 - length name)) f4 ip mac f5 temp10
                 (if on then 1 else 0) mode_byte target (16 * fan + (if swing then 1 else 0)) f6 remote f7) in *.
  destruct W as [L1 Lid L2 L3 L4 Lip Lmac L5 L6 Lrem L7 Lnl Lnv Lnlast Lrv].
  assert (Hw : widths segs [2; 16; 3; 19; 1; 1; 32; 2; 1; 4; 6; 48; 2; 1; 1; 1; 1; 2; 8; 17]%nat).
  { unfold widths, segs, breeze_segs. cbn [map]. change (name ++ repeat 0 (32 - length name)) with (pad0 32 name).
    rewrite (pad0_length 32 name Lnl), L1, Lid, L2, L3, L4, Lip, Lmac, L5, L6, Lrem, L7. reflexivity. }
  assert (Hlen : length (concat segs) = 168%nat) by exact (length_layout _ _ Hw).
  assert (Horig : is_switcher_originator (concat segs) = true).
  { apply originator_intro; [reflexivity|right; left; exact Hlen]. }
  (* the model code first: it selects the thermostat branch, and every later step works on that branch alone *)
  unfold parse_datagram. rewrite (slice_field Hw 7 74 76 eq_refl).
  change (dt_by_hex (hexlify [14; 1])) with (Some ("BREEZE"%string, 2, "THERMOSTAT"%string)). cbv iota beta.
  simpl (String.eqb _ _). cbv iota. rewrite Horig.
  (* the power field is read here too: bytes 135..138 are temperature, state and mode, and always parse *)
  rewrite (slice_field Hw 13 137 138 eq_refl).
  destruct (power_r_ok (eqs (hexlify [if on then 1 else 0]) "01") _ Hwf ltac:(lia)) as [p ->].
  rewrite (slice_field Hw 6 42 74 eq_refl), decode_name by assumption.
  rewrite (slice_field Hw 14 138 139 eq_refl), Hmv, (lookup3_value _ thermostat_modes), (lookup_member _ _ _ _ modes_find Hmode).
  rewrite (slice_field Hw 12 135 137 eq_refl), int16_swap2_le16 by exact Ht.
  rewrite (slice_field Hw 15 139 140 eq_refl), int16_byte by exact Htg.
  rewrite (slice_field Hw 16 140 141 eq_refl), hexlify_nibbles by (destruct swing; reflexivity).
  change (pyslice 0 1 [hexdigit fan; hexdigit (if swing then 1 else 0)]) with [hexdigit fan].
  rewrite Hfv, (lookup3_value _ fan_levels), (lookup_member _ _ _ _ fans_find Hfn).
  change (pyslice 1 2 [hexdigit fan; hexdigit (if swing then 1 else 0)]) with [hexdigit (if swing then 1 else 0)].
  rewrite (slice_field Hw 18 143 151 eq_refl). unfold decode_str. rewrite Lrv.
  rewrite (hex_field Hw 2 36 42 eq_refl), (hex_field Hw 4 80 82 eq_refl), (slice_field Hw 9 77 81 eq_refl), (slice_field Hw 10 81 87 eq_refl).
  destruct on, swing; reflexivity.
Qed.
Print Assumptions breeze_roundtrip.
