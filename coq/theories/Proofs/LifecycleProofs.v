Require Import AS.Base.Prelude AS.Model.Lifecycle AS.Spec.BridgeHistory AS.Spec.Client.

Lemma upd_same {A} (f : nat -> A) p v : upd f p v p = v.
Proof. unfold upd. rewrite Nat.eqb_refl. reflexivity. Qed.
Lemma upd_other {A} (f : nat -> A) p q v : q <> p -> upd f p v q = f q.
Proof. intros H. unfold upd. destruct (Nat.eqb_spec q p); [contradiction|reflexivity]. Qed.

Lemma mem_In p l : mem p l = true <-> In p l.
Proof. apply existsb_eqb_In. Qed.
Lemma mem_cons q x l : mem q (x :: l) = (Nat.eqb q x || mem q l)%bool.
Proof. reflexivity. Qed.

Definition is_bridge (o : owner) : bool := match o with Bridge => true | _ => false end.
Definition is_open (t : tstate) : bool := match t with TOpen => true | _ => false end.

Lemma is_bridge_true o : is_bridge o = true <-> o = Bridge.
Proof. destruct o; cbn; split; congruence. Qed.

(* the transports the object has recorded as open are the ports the OS says it holds *)
Definition coherent (s : bstate) : Prop := forall p, is_open (trans s p) = is_bridge (os s p).

Lemma upd_not_bridge f p o q : is_bridge (f p) = false -> is_bridge o = false -> is_bridge (upd f p o q) = is_bridge (f q).
Proof. intros Hp Ho. unfold upd. destruct (Nat.eqb_spec q p) as [->|_]; congruence. Qed.

Definition release (o : owner) : owner := match o with Bridge => Free | _ => o end.

Lemma close_port_spec s p : coherent s ->
  coherent (close_port s p) /\ running (close_port s p) = running s /\
  forall q, os (close_port s p) q = if Nat.eqb q p then release (os s q) else os s q.
Proof.
  intros Hc. pose proof (Hc p) as Hp. unfold close_port. destruct (trans s p); cbn [is_open] in Hp.
  (* an open transport is closed and its port given back; a transport not open changes nothing *)
  2: { split; [|split; [reflexivity|]]; intros q; cbn [os trans]; unfold upd; destruct (Nat.eqb_spec q p) as [->|_];
       [reflexivity|apply Hc|destruct (os s p); [discriminate..|reflexivity]|reflexivity]. }
  all: split; [exact Hc|split; [reflexivity|]]; intros q; destruct (Nat.eqb_spec q p) as [->|_]; [|reflexivity];
    destruct (os s p); [reflexivity..|discriminate].
Qed.

Lemma close_all_spec l : forall s, coherent s ->
  coherent (fold_left close_port l s) /\ running (fold_left close_port l s) = running s /\
  forall q, os (fold_left close_port l s) q = if mem q l then release (os s q) else os s q.
Proof.
  induction l as [|p l IH]; intros s Hc; [repeat split; apply Hc|].
  destruct (close_port_spec s p Hc) as (Hc1 & Hr1 & Ho1). destruct (IH _ Hc1) as (Hc2 & Hr2 & Ho2).
  cbn [fold_left]. split; [exact Hc2|]. split; [congruence|]. intros q. rewrite Ho2, Ho1, mem_cons.
  destruct (Nat.eqb q p), (mem q l), (os s q); reflexivity.
Qed.

Lemma start_loop_spec ports : forall opened s, coherent s ->
  let r := start_loop false ports opened s in
  coherent (fst r) /\
  if snd r then running (fst r) = true /\ forall q, os (fst r) q = if mem q ports then Bridge else os s q
  else running (fst r) = running s /\ forall q, os (fst r) q = if mem q opened then release (os s q) else os s q.
Proof.
  induction ports as [|p rest IH]; intros opened s Hc; cbn [start_loop].
  - repeat split; apply Hc.
  - destruct (os s p) eqn:E; [|exact (close_all_spec opened s Hc)..].
    set (s1 := {| running := running s; os := upd (os s) p Bridge; trans := upd (trans s) p TOpen |}).
    assert (Hc1 : coherent s1).
    { intros q. cbn. unfold upd. destruct (Nat.eqb q p); [reflexivity|apply Hc]. }
    destruct (IH (p :: opened) s1 Hc1) as (Hc' & Hos). split; [exact Hc'|].
    (* p, free in s (E), is bound in s1: a success leaves it bound, a failure gives it back with the rest of opened *)
    destruct (snd (start_loop false rest (p :: opened) s1)); destruct Hos as [Hr Hos]; (split; [exact Hr|]);
      intros q; rewrite Hos, mem_cons; cbn [s1 os]; unfold upd; (destruct (Nat.eqb_spec q p) as [->|_]; [|reflexivity]);
      rewrite ?E; cbn [orb release]; destruct (mem p _); reflexivity.
Qed.

Definition is_free (o : owner) : bool := match o with Free => true | _ => false end.
Definition all_free (s : bstate) (ports : list nat) : bool := forallb (fun p => is_free (os s p)) ports.

(* whether start succeeds is a matter of the port table alone; a port listed twice is found taken the second time *)
Lemma start_loop_ok ports : NoDup ports -> forall opened s, snd (start_loop false ports opened s) = all_free s ports.
Proof.
  induction 1 as [|p rest Hnin _ IH]; intros opened s; cbn [start_loop all_free forallb]; [reflexivity|].
  destruct (os s p); [|reflexivity..]. rewrite IH. apply forallb_ext_in. intros x Hx. cbn [os].
  rewrite upd_other by (intros ->; contradiction). reflexivity.
Qed.

(* the bridge holds a port exactly while it is running, on the ports it was configured with *)
Definition Inv (ports : list nat) (s : bstate) : Prop :=
  coherent s /\ forall q, is_bridge (os s q) = (running s && mem q ports)%bool.

Lemma foreign_inv ports s p o : Inv ports s -> is_bridge (os s p) = false -> is_bridge o = false ->
  Inv ports {| running := running s; os := upd (os s) p o; trans := trans s |}.
Proof.
  intros [Hc Hb] Hp Ho. split; intros q; cbn [running os trans]; rewrite upd_not_bridge by assumption; [apply Hc|apply Hb].
Qed.

Lemma step_inv ports s a : Inv ports s -> Inv ports (fst (step false ports s a)).
Proof.
  intros HI. pose proof HI as [Hc Hb]. destruct a as [| |p|p|p]; cbn [step].
  (* a foreign socket takes or gives back a port the bridge does not hold *)
  3,4: destruct (os s p) eqn:E; cbn [fst]; try exact HI; apply foreign_inv; [exact HI|rewrite E; reflexivity|reflexivity].
  - destruct (start_loop_spec ports [] s Hc) as (Hc' & Hos). unfold start. destruct (start_loop false ports [] s) as [s' ok].
    cbn [fst snd] in *. split; [exact Hc'|]. intros q. destruct ok; destruct Hos as [-> ->]; [|apply Hb].
    destruct (mem q ports) eqn:M; [reflexivity|]. rewrite Hb, M, Bool.andb_false_r. reflexivity.
  - destruct (close_all_spec ports s Hc) as (Hc' & _ & Hos). split; [exact Hc'|]. intros q. cbn [fst stop running os].
    rewrite Hos. destruct (mem q ports) eqn:M; [destruct (os s q); reflexivity|]. rewrite Hb, M. apply Bool.andb_false_r.
  - exact HI.
Qed.

Lemma init_inv ports : Inv ports init.
Proof. split; intros q; reflexivity. Qed.

Theorem run_inv ports acts : Inv ports (run false ports acts).
Proof. apply (fold_left_inv (Inv ports)); [intros s a; apply step_inv|apply init_inv]. Qed.

(* the code before the F8 repair violates C17_lifecycle: ports [1; 2], port 2 occupied, then start *)
Theorem C17_legacy_refuted : exists ports acts, let s := run true ports acts in
  running s = false /\ os s 1 = Bridge.
Proof. exists [1; 2], [AOccupy 2; AStart]. vm_compute. split; reflexivity. Qed.

Definition crun (acts : list caction) : cstate := fold_left (fun s a => fst (cstep s a)) acts cinit.

(* c and n are what Spec/Client.v reads off the history that led to s: connected, connections accepted.  The last
   conjunct says that every accepted connection no longer open was seen by the device as end-of-stream *)
Definition J (s : cstate) (c : bool) (n : nat) : Prop :=
  connected s = c /\ is_open (csock s) = c /\ dev_open s = (if c then 1 else 0) /\ dev_open s + dev_eofs s = n.

Lemma c_connect_done s : c_connect true s = (fst (c_connect true s), CDone).
Proof. unfold c_connect. destruct (csock s); reflexivity. Qed.

Lemma J_connect s c n : J s c n -> J (fst (c_connect true s)) true (n + 1).
Proof.
  intros (_ & Ho & Hd & Hn). unfold c_connect. destruct (csock s); cbn in Ho; subst c; cbn in Hd; repeat split; cbn; lia.
Qed.
Lemma J_disconnect s c n : J s c n -> J (c_disconnect s) false n.
Proof.
  intros (_ & Ho & Hd & Hn). unfold c_disconnect. destruct (csock s); cbn in Ho; subst c; cbn in Hd; repeat split; cbn; lia.
Qed.
Lemma J_step s c n a : J s c n -> J (fst (cstep s a)) (spec_connected_step c a) (n + accepted a).
Proof.
  intros H. destruct a as [[|]| |r|[|] b]; cbn [cstep spec_connected_step accepted fst]; rewrite ?Nat.add_0_r; try exact H.
  - apply J_connect with c, H.
  - apply J_disconnect with c, H.
  - rewrite c_connect_done. apply J_disconnect with true, J_connect with c, H.
Qed.
Lemma J_run acts : forall s c n, J s c n ->
  J (fold_left (fun s a => fst (cstep s a)) acts s) (fold_left spec_connected_step acts c) (fold_left (fun n a => n + accepted a) acts n).
Proof. induction acts as [|a acts IH]; intros s c n H; [exact H|]. apply IH, J_step, H. Qed.

Lemma crun_J acts : J (crun acts) (spec_connected acts) (spec_accepted acts).
Proof. apply J_run. repeat split. Qed.

Lemma c_disconnect_idem s : c_disconnect (c_disconnect s) = c_disconnect s.
Proof. unfold c_disconnect. destruct (csock s) eqn:E; cbn; rewrite ?E; reflexivity. Qed.
