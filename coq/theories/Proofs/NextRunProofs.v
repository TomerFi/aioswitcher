From Coq Require Import Sorted Permutation.
Require Import AS.Base.Prelude AS.Model.NextRun AS.Spec.NextRun AS.Proofs.WeekdayProofs.
Open Scope nat_scope.

Lemma insert_perm x l : Permutation (x :: l) (insert x l).
Proof.
  induction l as [|y l IH]; [reflexivity|]. cbn [insert]. destruct (x <=? y); [reflexivity|].
  rewrite perm_swap. apply perm_skip. exact IH.
Qed.
Lemma sort_perm l : Permutation l (sort l).
Proof.
  induction l as [|x l IH]; [reflexivity|]. cbn [sort fold_right].
  rewrite <- insert_perm. apply perm_skip. exact IH.
Qed.
Lemma insert_sorted x l : StronglySorted le l -> StronglySorted le (insert x l).
Proof.
  induction 1 as [|y l Hs IH Hy]; cbn [insert]; [repeat constructor|].
  destruct (Nat.leb_spec x y) as [E|E].
  - constructor; [constructor; assumption|]. constructor; [exact E|].
    apply (Forall_impl _ (fun z Hz => Nat.le_trans _ _ _ E Hz) Hy).
  - constructor; [exact IH|]. apply (Permutation_Forall (insert_perm x l)). constructor; [lia|exact Hy].
Qed.
Lemma sort_sorted l : StronglySorted le (sort l).
Proof. induction l as [|x l IH]; [constructor|]. apply insert_sorted, IH. Qed.

Lemma sorted_perm_unique : forall l1 l2, StronglySorted le l1 -> StronglySorted le l2 -> Permutation l1 l2 -> l1 = l2.
Proof.
  induction l1 as [|a l1 IH]; intros l2 H1 H2 Hp; [symmetry; apply Permutation_nil, Hp|].
  destruct l2 as [|b l2]; [apply Permutation_sym, Permutation_nil_cons in Hp; contradiction|].
  inversion H1 as [|? ? Hs1 Hf1]; subst. inversion H2 as [|? ? Hs2 Hf2]; subst. rewrite Forall_forall in Hf1, Hf2.
  assert (a = b).
  { destruct (Permutation_in _ Hp (or_introl eq_refl)) as [E|Ha]; [auto|].
    destruct (Permutation_in _ (Permutation_sym Hp) (or_introl eq_refl)) as [E|Hb]; [auto|].
    specialize (Hf2 a Ha). specialize (Hf1 b Hb). lia. }
  subst b. f_equal. apply IH; try assumption. apply (Permutation_cons_inv Hp).
Qed.

(* the model and the Spec see a list only through its members *)
Lemma sort_of_perm l l' : Permutation l l' -> sort l = sort l'.
Proof.
  intros Hp. apply sorted_perm_unique; try apply sort_sorted.
  rewrite <- (sort_perm l), <- (sort_perm l'). exact Hp.
Qed.
Lemma existsb_perm (f : nat -> bool) l l' : Permutation l l' -> existsb f l = existsb f l'.
Proof.
  induction 1 as [|x l l' _ IH|x y l|l l' l'' _ IH1 _ IH2]; cbn [existsb]; try congruence.
  destruct (f x), (f y); reflexivity.
Qed.
Lemma min_list_perm l l' : Permutation l l' -> min_list l = min_list l'.
Proof.
  unfold min_list. induction 1 as [|x l l' _ IH|x y l|l l' l'' _ IH1 _ IH2]; cbn [fold_right]; try congruence.
  lia.
Qed.

Lemma core_perm lg w f l l' : Permutation l l' -> pretty_next_run_core lg w f l = pretty_next_run_core lg w f l'.
Proof.
  intros Hp. unfold pretty_next_run_core. rewrite (existsb_perm _ l l' Hp), (sort_of_perm l l' Hp).
  destruct l, l'; try reflexivity; apply Permutation_length in Hp; discriminate.
Qed.
Lemma spec_perm w f l l' : Permutation l l' -> next_run_spec w f l = next_run_spec w f l'.
Proof.
  intros Hp. unfold next_run_spec. rewrite (min_list_perm _ _ (Permutation_map (ahead w f) Hp)).
  destruct l, l'; try reflexivity; apply Permutation_length in Hp; discriminate.
Qed.

(* the finite core: 128 selections, 7 weekdays, the flag *)
Definition nr_eqb (a b : next_run) : bool :=
  match a, b with Today, Today | Tomorrow, Tomorrow => true | NextDay x, NextDay y => x =? y | _, _ => false end.
Lemma nr_eqb_eq a b : nr_eqb a b = true -> a = b.
Proof. destruct a, b; cbn; try discriminate; try reflexivity. intros H. apply Nat.eqb_eq in H. subst. reflexivity. Qed.

Definition choice_ok (v : N) : bool :=
  forallb (fun w => forallb (fun f => nr_eqb (pretty_next_run_core false w f (sub v)) (next_run_spec w f (sub v))) [false; true]) (seq 0 7).
Lemma choice_all : sweep choice_ok 7 0 = true.
Proof. vm_compute. reflexivity. Qed.

(* C13, day-choice part: for every weekday, every "start still ahead" flag and every duplicate-free
   selection given in any order, the repaired code chooses what the Spec chooses *)
Theorem next_run_core_correct w f l : w < 7 -> NoDup l -> (forall d, In d l -> d < 7) ->
  pretty_next_run_core false w f l = next_run_spec w f l.
Proof.
  intros Hw Hn Hb. pose proof (canonical l Hn Hb) as Hp. rewrite (core_perm _ w f _ _ Hp), (spec_perm w f _ _ Hp).
  pose proof (sweep_all choice_ok 7 (vec l mod 128)%N choice_all ltac:(apply N.mod_lt; discriminate)) as H.
  unfold choice_ok in H. rewrite forallb_forall in H. specialize (H w ltac:(apply in_seq; lia)). rewrite forallb_forall in H.
  apply nr_eqb_eq, H. destruct f; cbn [In]; auto.
Qed.
Print Assumptions next_run_core_correct.
