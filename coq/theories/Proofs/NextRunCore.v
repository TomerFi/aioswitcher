Require Import AS.Base.Prelude AS.Model.NextRun AS.Spec.NextRun.
Open Scope nat_scope.
(* the pre-repair code is refuted: Wednesday (2), start passed, {Wed, Fri} *)
Lemma legacy_refuted : exists w f ds, pretty_next_run_core true w f ds <> next_run_spec w f ds.
Proof. exists 2, false, [2; 4]. vm_compute. discriminate. Qed.
Eval vm_compute in (pretty_next_run_core true 2 false [2;4], next_run_spec 2 false [2;4], pretty_next_run_core false 2 false [2;4]).
