(* A small Hoare logic for the exchange monad, specialised to the invariant "every frame written so far is good" *)
Require Import AS.Base.Prelude AS.Base.Exchange AS.Proofs.Wire.

Section Good.
Variable goodf : bytes -> Prop.          (* what a written frame must satisfy *)

Definition good (st : io) : Prop := Forall goodf (frames st).

(* {P} m {Q}: from a state satisfying P with only good frames, m leaves only good frames, whether it returns or
   raises, and Q holds of the returned value and the final state *)
Definition triple {A} (P : io -> Prop) (m : M A) (Q : A -> io -> Prop) : Prop :=
  forall st, P st -> good st ->
    match m st with
    | (st', Ok a) => good st' /\ Q a st'
    | (st', Exc _) => good st'
    end.

Lemma triple_ret {A} (P : io -> Prop) (a : A) : triple P (ret a) (fun x st => x = a /\ P st).
Proof. intros st HP Hg. cbn. auto. Qed.
Lemma triple_raise {A} (P : io -> Prop) e (Q : A -> io -> Prop) : triple P (raise e) Q.
Proof. intros st HP Hg. exact Hg. Qed.
Lemma triple_lift {A} (P : io -> Prop) (r : result A) : triple P (lift r) (fun x st => r = Ok x /\ P st).
Proof. intros st HP Hg. destruct r; cbn; auto. Qed.

Lemma triple_bind {A B} P (m : M A) Q (f : A -> M B) R :
  triple P m Q -> (forall a, triple (Q a) (f a) R) -> triple P (bindM m f) R.
Proof.
  intros Hm Hf st HP Hg. unfold bindM. specialize (Hm st HP Hg).
  destruct (m st) as [st' [a|e]]; [|exact Hm]. destruct Hm as [Hg' HQ]. exact (Hf a st' HQ Hg').
Qed.

Lemma triple_conseq {A} (P P' : io -> Prop) (m : M A) (Q Q' : A -> io -> Prop) :
  triple P' m Q' -> (forall st, P st -> P' st) -> (forall a st, Q' a st -> Q a st) -> triple P m Q.
Proof.
  intros H HP HQ st Hp Hg. specialize (H st (HP st Hp) Hg).
  destruct (m st) as [st' [a|e]]; [|exact H]. destruct H as [Hg' Hq]. split; [exact Hg'|apply HQ, Hq].
Qed.

Lemma triple_pure {A} (phi : Prop) (P : io -> Prop) (m : M A) Q :
  (phi -> triple P m Q) -> triple (fun st => phi /\ P st) m Q.
Proof. intros H st [Hphi HP] Hg. exact (H Hphi st HP Hg). Qed.

Lemma triple_ext {A} P (m m' : M A) Q : (forall st, m st = m' st) -> triple P m' Q -> triple P m Q.
Proof. intros E H st HP Hg. rewrite E. exact (H st HP Hg). Qed.

(* the one step that writes: the frame must be good whenever there is one *)
Lemma triple_emit {A} (P : io -> Prop) w (k : bytes -> A) : (forall bs, w = Ok bs -> goodf bs) ->
  triple P (emit w k) (fun a st => exists st0 bs, P st0 /\ st = push bs st0 /\ a = k (hd [] (replies st0))).
Proof.
  intros Hw st HP Hg. destruct w as [bs|e]; [|exact Hg]. split.
  - apply Forall_app. split; [exact Hg|constructor; [apply Hw; reflexivity|constructor]].
  - exists st, bs. auto.
Qed.

(* Most steps need nothing of the state and promise nothing of the result: whatever they add is good.  Like the frame
   rule of Uniform.v this is a predicate on computations that bind preserves, so an operation is walked once, leaf by leaf. *)
Definition safe {A} (m : M A) : Prop := triple (fun _ => True) m (fun _ _ => True).

Lemma safe_bind {A B} (m : M A) (f : A -> M B) : safe m -> (forall a, safe (f a)) -> safe (bindM m f).
Proof. intros Hm Hf. exact (triple_bind _ m _ f _ Hm Hf). Qed.
Lemma safe_silent {A} (m : M A) : (forall st, frames (fst (m st)) = frames st) -> safe m.
Proof.
  intros H st _ Hg. specialize (H st). unfold good in *. destruct (m st) as [st' [a|e]]; cbn [fst] in H; rewrite H; auto.
Qed.
Lemma safe_ret {A} (a : A) : safe (ret a).
Proof. apply safe_silent. reflexivity. Qed.
Lemma safe_raise {A} e : safe (@raise A e).
Proof. apply triple_raise. Qed.
(* the continuation of a pure step may use that it returned *)
Lemma safe_lift {A B} (r : result A) (f : A -> M B) : (forall a, r = Ok a -> safe (f a)) -> safe (bindM (lift r) f).
Proof. intros H. eapply triple_bind; [apply triple_lift|]. intros a. apply triple_pure, H. Qed.
Lemma safe_emit {A} w (k : bytes -> A) : (forall bs, w = Ok bs -> goodf bs) -> safe (emit w k).
Proof. intros Hw. eapply triple_conseq; [apply (triple_emit (fun _ => True)), Hw|auto|auto]. Qed.

Lemma triple_run {A} (P : io -> Prop) (m : M A) Q script :
  triple P m Q -> P {| frames := []; replies := script |} -> Forall goodf (fst (run m script)).
Proof.
  intros H HP. unfold run. specialize (H _ HP (Forall_nil _)).
  destruct (m {| frames := []; replies := script |}) as [st [a|e]]; cbn; [exact (proj1 H)|exact H].
Qed.
End Good.
