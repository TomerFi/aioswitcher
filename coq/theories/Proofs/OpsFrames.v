(* C01 over the exchange model: every frame any operation writes is well formed and signed *)
Require Import AS.Base.Prelude AS.Base.Hex AS.Base.Layout AS.Base.Template AS.Base.Exchange AS.Gen.Extracted AS.Spec.Frame
  AS.Spec.FrameSpec AS.Model.DeviceTools AS.Model.Messages AS.Model.Remotes AS.Model.ScheduleTools AS.Model.Api AS.Model.Ops
  AS.Proofs.Wire AS.Proofs.FrameProofs AS.Proofs.FrameAll AS.Proofs.Hoare AS.Proofs.WeekdayProofs.
Open Scope N_scope.

Definition okf (f : bytes) : Prop := frame_okb f = true.
Local Notation T := (triple okf).
Local Notation safe := (safe okf).

Definition frame_if_written (t : template) (args : list farg) (fix_len : bool) : Prop :=
  forall bs, wire false t args fix_len = Ok bs -> okf bs.

Lemma fiw (fl : bool) t ws rs : site_okb fl t ws = true -> Forall2 hexw ws rs -> frame_if_written t (map AStr rs) fl.
Proof. intros Hs Hr bs Hb. destruct (template_site fl t ws rs Hs Hr) as [b [Hb' [Hk _]]]. congruence. Qed.

Lemma safe_send t args fix_len : frame_if_written t args fix_len -> safe (send_template_gen false t args fix_len).
Proof. intros Hw. apply (triple_ext okf _ _ _ _ (send_template_gen_eq false t args fix_len)), safe_emit, Hw. Qed.

Lemma le32_hex x : hexw 8 (hexlify (le32 x)).
Proof. exact (hexlify_hexw (le32 x) 4 (le32_bytes x) eq_refl). Qed.

Definition wfs (script : list bytes) : Prop := Forall (Forall (fun b => b < 256)) script.
Definition Pre (st : io) : Prop := wfs (replies st) /\ (12 <= length (hd [] (replies st)))%nat.

Record wf_cfg (c : cfg) : Prop :=
  { wf_id : hexs (device_id c); wf_id_len : length (device_id c) = 6%nat;
    wf_key : hexs (device_key c); wf_key_len : length (device_key c) = 2%nat }.

Record login_ok (l : login_result) : Prop :=
  { lo_ts : hexw 8 (lr_timestamp l); lo_sess : hexw 8 (lr_session l) }.

Lemma wfs_hd s : wfs s -> Forall (fun b => b < 256) (hd [] s).
Proof. apply Forall_hd. constructor. Qed.

Lemma session_facts resp : Forall (fun b => b < 256) resp -> (12 <= length resp)%nat -> hexw 8 (pyslice 16 24 (hexlify resp)).
Proof. intros Hw Hl. rewrite session_is_bytes. apply (hexlify_hexw _ 4); [apply Forall_pyslice, Hw|apply pyslice_length, Hl]. Qed.

Lemma I_login (type2 : bool) : site_okb false (login_template type2) [8; if type2 then 6 else 2]%nat = true.
Proof. destruct type2; vm_compute; reflexivity. Qed.

Lemma login_triple c type2 now : wf_cfg c -> T Pre (login c type2 now) (fun l _ => login_ok l).
Proof.
  intros Hc. apply (triple_ext okf _ _ _ _ (login_eq c type2 now)).
  unfold timestamp_hex. destruct (now <? 4294967296); [|apply (triple_raise okf Pre StructError)].
  eapply triple_conseq; [apply (triple_emit okf Pre)|auto|].
  - change [AStr (hexlify (le32 now)); AStr (credential c type2)] with (map AStr [hexlify (le32 now); credential c type2]).
    apply (fiw false (login_template type2) [8; if type2 then 6 else 2]%nat _ (I_login type2)).
    constructor; [apply le32_hex|]. constructor; [destruct type2; split; apply Hc|constructor].
  - intros l st [st0 [bs [[Hw Hl] [_ ->]]]].
    constructor; cbn [logged_in lr_timestamp lr_session]; [apply le32_hex|exact (session_facts _ (wfs_hd _ Hw) Hl)].
Qed.

(* only the login asks something of the connection (Pre: its reply has 12 bytes); what follows is judged by [safe] *)
Lemma after_login {A} c type2 now (f : login_result -> M A) : wf_cfg c -> (forall l, login_ok l -> safe (f l)) ->
  T Pre (bindM (login c type2 now) f) (fun _ _ => True).
Proof. intros Hc Hf. eapply triple_bind; [apply login_triple, Hc|]. intros l st Hl. exact (Hf l Hl st I). Qed.

Lemma safe_command (fl : bool) c l t rs ws : wf_cfg c -> login_ok l -> site_okb fl t ([8; 8; 6]%nat ++ ws) = true ->
  Forall2 hexw ws rs ->
  safe (send_template_gen false t ([AStr (lr_session l); AStr (lr_timestamp l); AStr (device_id c)] ++ map AStr rs) fl).
Proof.
  intros Hc Hl Hk Hx. apply safe_send.
  change ([AStr (lr_session l); AStr (lr_timestamp l); AStr (device_id c)] ++ map AStr rs) with (map AStr ([lr_session l; lr_timestamp l; device_id c] ++ rs)).
  apply (fiw fl t ([8; 8; 6]%nat ++ ws) _ Hk), Forall2_app; [|exact Hx].
  constructor; [apply Hl|]. constructor; [apply Hl|]. constructor; [split; apply Hc|constructor].
Qed.

Definition enc_ok (extra : result (list farg)) (ws : list nat) : Prop :=
  forall args, extra = Ok args -> exists rs, args = map AStr rs /\ Forall2 hexw ws rs.

Lemma type1_op_triple c now t extra ws : wf_cfg c -> site_okb false t ([8; 8; 6]%nat ++ ws) = true -> enc_ok extra ws ->
  T Pre (type1_op false c now t extra) (fun _ _ => True).
Proof.
  intros Hc Hk He. apply (after_login c false now _ Hc). intros l Hl.
  apply safe_lift. intros args Hx. destruct (He args Hx) as [rs [-> Hhex]].
  apply (safe_command false c l t rs ws); assumption.
Qed.

Lemma type2_op_triple c now t rs ws : wf_cfg c -> site_okb true t ([8; 8; 6]%nat ++ ws) = true -> Forall2 hexw ws rs ->
  T Pre (type2_op false c now t (map AStr rs) true) (fun _ _ => True).
Proof.
  intros Hc Hk Hhex. apply (after_login c true now _ Hc). intros l Hl.
  destruct (successful (lr_response l)); [|apply safe_raise].
  apply (safe_command true c l t rs ws); assumption.
Qed.

Lemma I_get_state (type2 : bool) :
  site_okb false (if type2 then T_GET_STATE_PACKET2_TYPE2 else T_GET_STATE_PACKET_TYPE1) [8; 8; 6]%nat = true.
Proof. destruct type2; vm_compute; reflexivity. Qed.
Lemma I_control : site_okb false T_SEND_CONTROL_PACKET [8; 8; 6; 1; 8]%nat = true. Proof. vm_compute. reflexivity. Qed.
Lemma I_auto_off : site_okb false T_SET_AUTO_OFF_SET_PACKET [8; 8; 6; 8]%nat = true. Proof. vm_compute. reflexivity. Qed.
Lemma I_set_name : site_okb false T_UPDATE_DEVICE_NAME_PACKET [8; 8; 6; 64]%nat = true. Proof. vm_compute. reflexivity. Qed.
Lemma I_get_schedules : site_okb false T_GET_SCHEDULES_PACKET [8; 8; 6]%nat = true. Proof. vm_compute. reflexivity. Qed.
Lemma I_delete : site_okb false T_DELETE_SCHEDULE_PACKET [8; 8; 6; 1]%nat = true. Proof. vm_compute. reflexivity. Qed.
Lemma I_create : site_okb false T_CREATE_SCHEDULE_PACKET [8; 8; 6; 22]%nat = true. Proof. vm_compute. reflexivity. Qed.
Lemma I_stop : site_okb true T_RUNNER_STOP_COMMAND [8; 8; 6]%nat = true. Proof. vm_compute. reflexivity. Qed.
Lemma I_set_position : site_okb true T_RUNNER_SET_POSITION [8; 8; 6; 2]%nat = true. Proof. vm_compute. reflexivity. Qed.

Lemma enc_ok_ret rs ws : Forall2 hexw ws rs -> enc_ok (Ok (map AStr rs)) ws.
Proof. intros Hx args H. injection H as <-. exists rs. auto. Qed.
Lemma enc_ok_one (r : result bytes) w : (forall a, r = Ok a -> hexw w a) -> enc_ok (do a <- r ;; Ok [AStr a]) [w].
Proof.
  intros H args E. destruct r as [a|]; [|discriminate]. injection E as <-.
  exists [a]. split; [reflexivity|]. constructor; [exact (H a eq_refl)|constructor].
Qed.

Lemma minutes_enc m x : minutes_to_hexadecimal_seconds m = Ok x -> hexw 8 x.
Proof. unfold minutes_to_hexadecimal_seconds. destruct (m * 60 <? 4294967296); [|discriminate]. intros H; injection H as <-. apply le32_hex. Qed.
Lemma timedelta_enc s x : timedelta_to_hexadecimal_seconds s = Ok x -> hexw 8 x.
Proof. unfold timedelta_to_hexadecimal_seconds. destruct (_ && _)%bool; [|discriminate]. intros H; injection H as <-. apply le32_hex. Qed.
Lemma clock_enc lg base s x : time_to_hexadecimal_timestamp lg base s = Ok x -> hexw 8 x.
Proof.
  unfold time_to_hexadecimal_timestamp. destruct (split_colon s) as [|t0 [|t1 r]]; try discriminate.
  destruct (strptime_HM _) as [hm|]; cbn [bind]; [|discriminate].
  destruct (if lg then _ else _) as [u|]; cbn [bind]; [|discriminate].
  destruct (_ && _)%bool; [|discriminate]. intros H; injection H as <-. apply le32_hex.
Qed.
Lemma lit_hexs (s : string) : forallb is_hexchar (s2l s) = true -> hexs (s2l s).
Proof. intros H. apply Forall_forall. apply forallb_forall. exact H. Qed.

Lemma name_enc name x : Forall (fun b => b < 256) name -> string_to_hexadecimale_device_name false name = Ok x -> hexw 64 x.
Proof.
  intros Hb. unfold string_to_hexadecimale_device_name.
  destruct ((1 <? length name) && (length name <? 33))%nat eqn:E; [|discriminate]. intros H.
  replace x with (hexlify (name ++ repeat 0 (32 - length name)))
    by (rewrite hexlify_app, (hexlify_repeat 0 _ : _ = concat (repeat (s2l "00") _)); congruence).
  apply andb_prop in E. destruct E as [_ E]. apply Nat.ltb_lt in E. split.
  - apply hexlify_hexs, Forall_app. split; [exact Hb|apply Forall_repeat; reflexivity].
  - rewrite hexlify_length, app_length, repeat_length. lia.
Qed.

Lemma astr2 a b : [AStr a; AStr b] = map AStr [a; b]. Proof. reflexivity. Qed.
Lemma astr1 a : [AStr a] = map AStr [a]. Proof. reflexivity. Qed.

Lemma control_enc (on : bool) minutes :
  enc_ok (do timer <- (if (0 <? minutes)%Z then minutes_to_hexadecimal_seconds (Z.to_N minutes) else Ok NO_TIMER_REQUESTED) ;;
          Ok [AStr (s2l (if on then "1" else "0")); AStr timer]) [1; 8]%nat.
Proof.
  intros args H. destruct (if (0 <? minutes)%Z then _ else _) as [timer|] eqn:E; cbn [bind] in H; [|discriminate].
  assert (Ht : hexw 8 timer).
  { destruct (0 <? minutes)%Z; [exact (minutes_enc _ _ E)|]. injection E as <-. split; [apply lit_hexs|]; reflexivity. }
  injection H as <-. exists [s2l (if on then "1" else "0"); timer]. split; [reflexivity|].
  constructor; [destruct on; split; [apply lit_hexs| |apply lit_hexs|]; reflexivity|]. constructor; [exact Ht|constructor].
Qed.

Lemma record_text a b c : format T_SCHEDULE_CREATE_DATA_FORMAT [AStr a; AStr b; AStr c] = Ok (s2l "01" ++ a ++ s2l "01" ++ b ++ c ++ []).
Proof. reflexivity. Qed.

Lemma record_enc wd st en rec : hexw 2 wd -> hexw 8 st -> hexw 8 en ->
  format T_SCHEDULE_CREATE_DATA_FORMAT [AStr wd; AStr st; AStr en] = Ok rec -> hexw 22 rec.
Proof.
  intros [H1 L1] [H2 L2] [H3 L3] Hf. rewrite record_text in Hf.
  assert (E : rec = s2l "01" ++ wd ++ s2l "01" ++ st ++ en ++ []) by congruence. subst rec. split.
  - repeat (apply Forall_app; split); try assumption; try (apply lit_hexs; reflexivity); constructor.
  - rewrite !app_length, L1, L2, L3. reflexivity.
Qed.

Definition days_ok (d : days_arg) : Prop :=
  match d with
  | ADay x => (x < n_days)%nat
  | ASet l => NoDup l /\ (forall x, In x l -> (x < n_days)%nat)
  | ASeq l => forall x, In x l -> (x < n_days)%nat
  end.

Lemma weekdays_enc d x : days_ok d -> weekdays_to_hexadecimal d = Ok x -> hexw 2 x.
Proof.
  intros Hd. destruct d as [y|l|l]; cbn [days_ok] in Hd.
  - (* a single day is encoded as the one-element set *)
    cbn [weekdays_to_hexadecimal]. intros H; inversion H; subst.
    destruct (core_facts [y]) as [Hf [Hlt _]]; [discriminate|repeat constructor; intros []|intros z [<-|[]]; exact Hd|].
    unfold sum_bits in Hf, Hlt. cbn [fold_left] in Hf, Hlt. rewrite N.add_0_l in Hf, Hlt. rewrite Hf. apply hexbyte_hexs. exact Hlt.
  - destruct l as [|a l]; [discriminate|]. destruct Hd as [Hn Hb].
    rewrite (weekdays_encode_set (a :: l) ltac:(discriminate) Hn Hb). intros H; inversion H; subst.
    apply hexbyte_hexs. apply (core_facts (a :: l) ltac:(discriminate) Hn Hb).
  - destruct l as [|a l]; [discriminate|]. rewrite seq_unfold by discriminate.
    destruct (nodupb (a :: l)) eqn:E; [|discriminate]. apply nodupb_NoDup in E.
    intros H; inversion H; subst. destruct (core_facts (a :: l) ltac:(discriminate) E Hd) as [Hf [Hlt _]].
    rewrite Hf. apply hexbyte_hexs. exact Hlt.
Qed.

Lemma create_enc lg day_base st en days : days_ok days ->
  enc_ok (do st <- time_to_hexadecimal_timestamp lg day_base st ;;
          do en <- time_to_hexadecimal_timestamp lg day_base en ;;
          do wd <- (match days with ASet [] | ASeq [] => Ok NON_RECURRING_SCHEDULE | _ => weekdays_to_hexadecimal days end) ;;
          do rec <- format T_SCHEDULE_CREATE_DATA_FORMAT [AStr wd; AStr st; AStr en] ;;
          Ok [AStr rec]) [22]%nat.
Proof.
  intros Hd. destruct (time_to_hexadecimal_timestamp lg day_base st) as [s|] eqn:Es; [|discriminate].
  destruct (time_to_hexadecimal_timestamp lg day_base en) as [e|] eqn:Ee; [|discriminate]. cbn [bind].
  match goal with |- enc_ok (do wd <- ?W ;; _) _ => destruct W as [wd|] eqn:Ew end; [|discriminate].
  apply enc_ok_one. intros rec. apply record_enc; [|exact (clock_enc _ _ _ _ Es)|exact (clock_enc _ _ _ _ Ee)].
  destruct days as [y|[|a l]|[|a l]]; try (injection Ew as <-; split; [apply lit_hexs|]; reflexivity); exact (weekdays_enc _ _ Hd Ew).
Qed.

Section Ops2.
Variable c : cfg.
Hypothesis Hc : wf_cfg c.
Variable now : N.

Lemma query_triple t type2 : holes_okb t 3 = true -> c01_cells_ok (sym t [8; 8; 6]%nat) = true ->
  T Pre (perform l <- login c type2 now ;;
         if successful (lr_response l)
         then send_template t [AStr (lr_session l); AStr (lr_timestamp l); AStr (device_id c)] false
         else raise RuntimeError) (fun _ _ => True).
Proof.
  intros Hh Hk. apply (after_login c type2 now _ Hc). intros l Hl.
  destruct (successful (lr_response l)); [|apply safe_raise].
  apply (safe_command false c l t [] []%nat Hc Hl (andb_true_intro (conj Hh Hk))). constructor.
Qed.
End Ops2.

(* Thermostat control: its frames have an integer hole or a trailing argument of any length, so no list of widths fits
   them.  What they share is the 80-character header, pieces 0-4 of the template, with the session and the timestamp. *)
Definition header_okb (t : template) : bool :=
  let cs := sym (firstn 5 t) [8; 8]%nat in
  holes_okb (firstn 5 t) 2 && (length cs =? 80)%nat &&
  known_at cs 0 (s2l "fef0") && known_at cs 76 (s2l "f0fe") && lits_hexb t.

Lemma nth_error_strs rs i s rest : nth_error rs i = Some s -> nth_error (map AStr rs ++ rest) i = Some (AStr s).
Proof. intros H. rewrite nth_error_app1 by (rewrite map_length; apply nth_error_Some; congruence). apply map_nth_error. exact H. Qed.

Lemma header_text t sess ts rest p : header_okb t = true ->
  hexw 8 sess -> hexw 8 ts -> strs_hex rest ->
  format t ([AStr sess; AStr ts] ++ rest) = Ok p -> Nat.even (length p) = true -> N.of_nat (length p / 2 + 4) < 65536 ->
  exists b, unhexlify p = Some b /\ wire_text false p true = Ok (seal b) /\ frame_okb (seal b) = true.
Proof.
  unfold header_okb. intros [[[[Hk Klen%Nat.eqb_eq]%andb_prop K0]%andb_prop K76]%andb_prop Klits]%andb_prop [H1 L1] [H2 L2] Hr Hf He Hn.
  pose proof (format_hexs t _ p Klits (sh_str _ _ H1 (sh_str _ _ H2 Hr)) Hf) as Hhex.
  change [AStr sess; AStr ts] with (map AStr [sess; ts]) in Hf.
  rewrite <- (firstn_skipn 5 t), format_app, (format_strs_app (firstn 5 t) [8; 8]%nat [sess; ts] rest Hk) in Hf
    by (unfold widths; cbn [map]; rewrite L1, L2; reflexivity).
  destruct (format (skipn 5 t) _) as [q|]; cbn [bind] in Hf; [|discriminate].
  (* p = a ++ q, where a is the header with its 80 cells *)
  set (a := map (denote [sess; ts]) (sym (firstn 5 t) [8; 8]%nat)) in *. replace p with (a ++ q) in * by congruence.
  assert (La : length a = 80%nat) by (unfold a; rewrite map_length; exact Klen).
  apply text_frame; [exact Hhex|exact He|rewrite app_length; lia| | |exact Hn]; rewrite pyslice_app_l by lia.
  - exact (known_at_sound [sess; ts] _ 0 (s2l "fef0") K0).
  - exact (known_at_sound [sess; ts] _ 76 (s2l "f0fe") K76).
Qed.

Lemma H_breeze_command : header_okb T_BREEZE_COMMAND_PACKET = true. Proof. vm_compute. reflexivity. Qed.
Lemma H_breeze_status : header_okb T_BREEZE_UPDATE_STATUS_PACKET = true. Proof. vm_compute. reflexivity. Qed.

(* C01 needs no more of the text: with the length filled in, an odd or over-long one is never written *)
Lemma safe_breeze t l rest : header_okb t = true -> login_ok l -> strs_hex rest ->
  safe (send_template_gen false t ([AStr (lr_session l); AStr (lr_timestamp l)] ++ rest) true).
Proof.
  intros Hk Hl Hr. apply safe_send. intros bs Hw. unfold wire in Hw. destruct (format t _) as [p|] eqn:Hf; [|discriminate]. cbn [bind] in Hw.
  destruct (text_sealed_inv false p bs Hw) as [He Hn].
  destruct (header_text t _ _ rest p Hk (lo_sess l Hl) (lo_ts l Hl) Hr Hf He (Hn eq_refl)) as [b [_ [Hw' Hok]]].
  congruence.
Qed.

Definition table_hexb (t : list (string * string * string)) : bool := forallb (fun '(_, v, _) => forallb is_hexchar (s2l v)) t.
Lemma value_of_hexs t n : table_hexb t = true -> hexs (value_of n t).
Proof.
  intros H. induction t as [|[[n' v] d] t IH]; [constructor|]. cbn [value_of].
  apply andb_prop in H. destruct H as [Hv H]. destruct (String.eqb n n'); [apply lit_hexs; exact Hv|apply IH, H].
Qed.
Lemma modes_hex : table_hexb thermostat_modes = true. Proof. vm_compute. reflexivity. Qed.
Lemma fans_hex : table_hexb fan_levels = true. Proof. vm_compute. reflexivity. Qed.

Definition remote_wf (r : remote) : Prop :=
  forall k p h, In (k, (p, h)) (r_map r) -> Forall (fun b => b < 256) p /\ Forall (fun b => b < 256) h.
Lemma map_get_in k m v : map_get k m = Some v -> exists k', In (k', v) m.
Proof.
  induction m as [|[k' v'] m IH]; [discriminate|]. cbn [map_get].
  destruct (map_get k m) as [v''|] eqn:E.
  - intros H. inversion H; subst. destruct (IH eq_refl) as [k0 Hin]. exists k0. right. exact Hin.
  - destruct (bytes_eq_dec k k'); [|discriminate]. intros H; inversion H; subst. exists k'. left. reflexivity.
Qed.

(* the IR command of a stored entry and its length field, as both builders make them *)
Lemma entry_hexs r k p h cl : remote_wf r -> map_get k (r_map r) = Some (p, h) ->
  let cmd := s2l "00000000" ++ hexlify (p ++ [124] ++ h) in
  (do len <- breeze_command_length false cmd ;; Ok (cmd, len)) = Ok cl -> hexs (fst cl) /\ hexs (snd cl).
Proof.
  intros Hr E cmd. destruct (map_get_in _ _ _ E) as [k' Hin]. destruct (Hr _ _ _ Hin) as [Hp Hh].
  unfold breeze_command_length. destruct (65536 <=? _); [discriminate|]. cbn [bind]. intros H.
  replace cl with (cmd, hexlify (le16 (N.of_nat (length cmd / 2)))) by congruence. split.
  - apply Forall_app. split; [apply lit_hexs; reflexivity|].
    apply hexlify_hexs, Forall_app. split; [exact Hp|]. constructor; [reflexivity|exact Hh].
  - apply hexlify_hexs, le16_bytes.
Qed.
Lemma build_command_hexs r st md tg fn sw cur cl : remote_wf r ->
  build_command false r st md tg fn sw cur = Ok cl -> hexs (fst cl) /\ hexs (snd cl).
Proof.
  intros Hr. unfold build_command.
  destruct (negb (existsb (String.eqb md) (r_supported r))); [discriminate|].
  match goal with |- (do cmd <- command_of r ?K ;; _) = _ -> _ => generalize K end. intros key.
  unfold command_of. destruct (map_get (concat key) (r_map r)) as [[p h]|] eqn:E; [|discriminate].
  exact (entry_hexs r _ p h cl Hr E).
Qed.
Lemma build_swing_hexs r sw cl : remote_wf r -> build_swing_command false r sw = Ok cl -> hexs (fst cl) /\ hexs (snd cl).
Proof.
  intros Hr. unfold build_swing_command. destruct (map_get _ (r_map r)) as [[p h]|] eqn:E; [|discriminate].
  exact (entry_hexs r _ p h cl Hr E).
Qed.

Theorem breeze_frames c now r state mode target fan swing update : wf_cfg c -> remote_wf r ->
  T Pre (control_breeze_device false c now r state mode target fan swing update) (fun _ _ => True).
Proof.
  intros Hc Hr. apply (after_login c true now _ Hc). intros l Hl.
  destruct (negb (successful (lr_response l))); [apply safe_raise|].
  assert (Hcmd : forall cl, hexs (fst cl) /\ hexs (snd cl) ->
            safe (send_template_gen false T_BREEZE_COMMAND_PACKET
                    [AStr (lr_session l); AStr (lr_timestamp l); AStr (device_id c); AStr (snd cl); AStr (fst cl)] true)).
  { intros cl [H1 H2]. apply (safe_breeze T_BREEZE_COMMAND_PACKET l [AStr (device_id c); AStr (snd cl); AStr (fst cl)] H_breeze_command Hl).
    apply sh_str; [apply Hc|]. apply sh_str; [exact H2|]. apply sh_str; [exact H1|apply sh_nil]. }
  apply safe_bind; [|intros cmd; apply safe_bind; [|intros final; destruct final; [apply safe_ret|apply safe_raise]]].
  - destruct (_ || _ || _ || _ || _)%bool; [|apply safe_ret].
    apply safe_bind; [|intros sresp].
    { apply (safe_command false c l _ [] []%nat Hc Hl (I_get_state true)). constructor. }
    destruct (parse_thermostat_reply sresp) as [cur|e]; [|destruct (_ || _)%bool; apply safe_raise].
    destruct (negb (successful sresp)); [apply safe_raise|].
    apply safe_bind; [|intros resp; destruct (successful resp); [apply safe_ret|apply safe_raise]].
    destruct update.
    + apply (safe_breeze T_BREEZE_UPDATE_STATUS_PACKET l _ H_breeze_status Hl).
      apply sh_str; [apply Hc|].
      apply sh_str; [destruct (or_else state (tf_on cur)); apply lit_hexs; reflexivity|].
      apply sh_str; [apply value_of_hexs, modes_hex|]. apply sh_int.
      apply sh_str; [apply value_of_hexs, fans_hex|].
      apply sh_str; [|apply sh_nil].
      match goal with |- Forall _ (s2l (if ?b then _ else _)) => destruct b end; apply lit_hexs; reflexivity.
    + apply safe_lift. intros cl E. apply Hcmd, (build_command_hexs _ _ _ _ _ _ _ _ Hr E).
  - destruct (_ && _ && _)%bool; [|apply safe_ret].
    apply safe_lift. intros cl E. apply safe_bind; [apply Hcmd, (build_swing_hexs _ _ _ Hr E)|intros resp; apply safe_ret].
Qed.

Lemma mapM_triple {A B} P (f : A -> B) (m : M A) Q : T P m Q -> T P (mapM f m) (fun _ _ => True).
Proof. intros H. eapply triple_bind; [exact H|]. intros a st _. apply safe_ret. exact I. Qed.

Lemma query_frames {A} c now (type2 : bool) (k : bytes -> M A) : wf_cfg c -> (forall r st, frames (fst (k r st)) = frames st) ->
  T Pre (query c now type2 k) (fun _ _ => True).
Proof.
  intros Hc Hk. apply (after_login c type2 now _ Hc). intros l Hl.
  destruct (successful (lr_response l)); [|apply safe_raise].
  apply safe_bind; [|intros r; apply safe_silent, Hk].
  apply (safe_command false c l _ [] []%nat Hc Hl (I_get_state type2)). constructor.
Qed.

Lemma wrap_parse_silent {A B} (r : result A) (f : A -> B) st : frames (fst ((perform a <- wrap_parse r ;; ret (f a)) st)) = frames st.
Proof. unfold wrap_parse, bindM. destruct r as [a|e]; [reflexivity|]. destruct (_ || _)%bool; reflexivity. Qed.

Definition accepted (o : op) : Prop :=
  match o with
  | OSetName name => Forall (fun b => b < 256) name            (* text as UTF-8 bytes *)
  | ODelete slot => hexs slot /\ length slot = 1%nat            (* one character '0'..'7' *)
  | OCreate _ _ _ days => days_ok days                          (* Days members, a set has no duplicates *)
  | OSetPosition p => p < 256
  | OBreeze r _ _ _ _ _ _ => remote_wf r                       (* IR texts are byte strings *)
  | _ => True
  end.

Theorem all_operations_frames c now o script : wf_cfg c -> accepted o -> wfs script -> (12 <= length (hd [] script))%nat ->
  Forall okf (fst (Exchange.run (run_op c now o) script)).
Proof.
  intros Hc Ha Hw Hl.
  apply (triple_run okf Pre (run_op c now o) (fun _ _ => True)); [|split; assumption].
  destruct o; cbn [run_op accepted] in *; apply (mapM_triple _ _ _ (fun _ _ => True)).
  - exact (type1_op_triple c now _ _ [1; 8]%nat Hc I_control (control_enc on minutes)).
  - apply (type1_op_triple c now _ _ [8]%nat Hc I_auto_off), enc_ok_one, timedelta_enc.
  - apply (type1_op_triple c now _ _ [64]%nat Hc I_set_name), enc_ok_one. intros a. apply name_enc, Ha.
  - unfold get_schedules_full. eapply triple_bind.
    + exact (type1_op_triple c now _ _ []%nat Hc I_get_schedules (enc_ok_ret [] []%nat (Forall2_nil _))).
    + intros resp st _. apply safe_silent; [|exact I]. intros st'. destruct (ScheduleParser.get_schedules _ _ _ _ resp); reflexivity.
  - apply (type1_op_triple c now _ _ [1]%nat Hc I_delete), (enc_ok_ret [slot]). constructor; [exact Ha|constructor].
  - exact (type1_op_triple c now _ _ [22]%nat Hc I_create (create_enc false day_base start_time end_time days Ha)).
  - exact (type2_op_triple c now _ [] []%nat Hc I_stop (Forall2_nil _)).
  - unfold set_position_op. rewrite (fmt_02x_byte position Ha).
    apply (type2_op_triple c now _ [hexbyte position] [2]%nat Hc I_set_position).
    constructor; [apply hexbyte_hexs, Ha|constructor].
  - apply (query_frames c now true _ Hc). intros r st. apply wrap_parse_silent.
  - apply (query_frames c now true _ Hc). intros r st. apply wrap_parse_silent.
  - apply (query_frames c now false _ Hc). intros r st.
    destruct (parse_state_reply r); [destruct (successful r); reflexivity|destruct (_ || _)%bool; reflexivity].
  - apply breeze_frames; assumption.
Qed.
Print Assumptions all_operations_frames.
