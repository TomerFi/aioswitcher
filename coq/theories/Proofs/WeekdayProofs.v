Require Import AS.Base.Prelude AS.Base.Hex AS.Model.ScheduleTools.
From Coq Require Import Permutation.
Open Scope N_scope.

(* canonical sublist of all_days selected by the bits of v *)
Definition sub (v : N) : list day := filter (fun d => N.testbit v (N.of_nat d)) all_days.
Definition memb (l : list day) (d : day) : bool := existsb (Nat.eqb d) l.
Definition vec (l : list day) : N := fold_left (fun a d => N.setbit a (N.of_nat d)) l 0.

Lemma memb_In l d : memb l d = true <-> In d l.
Proof. apply existsb_eqb_In. Qed.

Lemma sum_bits_perm l l' : Permutation l l' -> sum_bits l = sum_bits l'.
Proof.
  unfold sum_bits. intros Hp. generalize 0. induction Hp as [|x l l' _ IH|x y l|l l' l'' _ IH1 _ IH2]; intros a; cbn [fold_left].
  - reflexivity.
  - apply IH.
  - f_equal. lia.
  - rewrite IH1. apply IH2.
Qed.

Lemma testbit_vec l : forall a d, N.testbit (fold_left (fun a d => N.setbit a (N.of_nat d)) l a) (N.of_nat d)
  = N.testbit a (N.of_nat d) || memb l d.
Proof.
  induction l as [|x l IH]; intros a d; cbn [fold_left memb existsb].
  - rewrite orb_false_r. reflexivity.
  - rewrite IH. destruct (Nat.eqb_spec d x) as [->|Hne].
    + rewrite N.setbit_eq. rewrite orb_true_l, orb_true_r. reflexivity.
    + rewrite N.setbit_neq by lia. reflexivity.
Qed.
(* mod 128 keeps the seven day bits, so that the sweep's bound holds of every list, also one with days out of range *)
Lemma testbit_canon l d : (d < n_days)%nat -> N.testbit (vec l mod 128) (N.of_nat d) = memb l d.
Proof.
  intros Hd. change 128 with (2^7). rewrite N.mod_pow2_bits_low by (change n_days with 7%nat in Hd; lia).
  unfold vec. rewrite testbit_vec, N.bits_0. reflexivity.
Qed.
Lemma sub_canon l : sub (vec l mod 128) = filter (memb l) all_days.
Proof. unfold sub. apply filter_ext_in. intros d Hd. apply testbit_canon. apply in_seq in Hd. lia. Qed.

(* a duplicate-free selection of Days is, up to order, one of 128 lists: what does not depend on the order needs checking on those only *)
Lemma canonical l : NoDup l -> (forall d, In d l -> (d < n_days)%nat) -> Permutation l (sub (vec l mod 128)).
Proof.
  intros Hn Hb. rewrite sub_canon. apply NoDup_Permutation; [exact Hn|apply NoDup_filter, seq_NoDup|].
  intros d. rewrite filter_In, memb_In. unfold all_days. rewrite in_seq. split.
  - intros H. split; [specialize (Hb d H); lia|exact H].
  - intros [_ H]. exact H.
Qed.

(* the finite core: 128 canonical subsets, by computation on the extracted table *)
Definition list_nat_eqb (a b : list day) : bool :=
  (length a =? length b)%nat && forallb (fun '(x, y) => Nat.eqb x y) (combine a b).
Definition bytes_eqb (a b : bytes) : bool :=
  (length a =? length b)%nat && forallb (fun '(x, y) => N.eqb x y) (combine a b).

Definition core_ok (v : N) : bool :=
  let l := sub v in
  let m := sum_bits l in
  match l with
  | [] => true
  | _ =>
    (* two hex digits, even, in range, decodes back to the same subset *)
    bytes_eqb (fmt_02x m) (hexbyte m) && (m <? 256) && N.even m && (2 <=? m) && (m <=? 254) &&
    forallb (fun d => Bool.eqb (N.testbit m (N.of_nat d + 1)) (N.testbit v (N.of_nat d))) all_days &&
    match bit_summary_to_days m with Ok l' => list_nat_eqb l' l | Exc _ => false end
  end.
Lemma core_all : sweep core_ok 7 0 = true.
Proof. vm_compute. reflexivity. Qed.

Lemma n_days_7 : n_days = 7%nat. Proof. reflexivity. Qed.

Lemma core v : core_ok (v mod 128) = true.
Proof. apply (sweep_all core_ok 7); [exact core_all|]. apply N.mod_lt. discriminate. Qed.

Lemma bytes_eqb_eq a b : bytes_eqb a b = true -> a = b.
Proof. apply (pairwise_eqb_eq N.eqb). intros x y. apply N.eqb_eq. Qed.
Lemma list_nat_eqb_eq a b : list_nat_eqb a b = true -> a = b.
Proof. apply (pairwise_eqb_eq Nat.eqb). intros x y. apply Nat.eqb_eq. Qed.

Lemma nodupb_NoDup l : nodupb l = true <-> NoDup l.
Proof.
  induction l as [|x l IH]; cbn [nodupb].
  - split; [constructor|reflexivity].
  - rewrite andb_true_iff, negb_true_iff, IH. fold (memb l x). rewrite <- not_true_iff_false, memb_In.
    symmetry. apply NoDup_cons_iff.
Qed.

Lemma core_facts l : l <> [] -> NoDup l -> (forall d, In d l -> (d < n_days)%nat) ->
  let m := sum_bits l in
  fmt_02x m = hexbyte m /\ m < 256 /\ N.even m = true /\ 2 <= m <= 254 /\
  (forall d, (d < n_days)%nat -> N.testbit m (N.of_nat d + 1) = memb l d) /\
  bit_summary_to_days m = Ok (filter (memb l) all_days).
Proof.
  intros Hne Hnd Hb. pose proof (canonical l Hnd Hb) as Hp. pose proof (core (vec l)) as H.
  rewrite (sum_bits_perm _ _ Hp), <- sub_canon. set (v := vec l mod 128) in *. unfold core_ok in H.
  destruct (sub v) as [|x r] eqn:E; [apply Permutation_sym, Permutation_nil in Hp; contradiction|].
  rewrite <- E in *. rewrite !andb_true_iff in H. destruct H as ((((((Hfmt & Hlt) & Hev) & Hge) & Hle) & Hbits) & Hdec).
  split; [apply bytes_eqb_eq, Hfmt|]. split; [apply N.ltb_lt, Hlt|]. split; [exact Hev|].
  split; [split; [apply N.leb_le, Hge|apply N.leb_le, Hle]|]. split.
  - intros d Hd. rewrite forallb_forall in Hbits. specialize (Hbits d ltac:(apply in_seq; lia)). apply eqb_prop in Hbits. rewrite Hbits.
    apply testbit_canon, Hd.
  - destruct (bit_summary_to_days (sum_bits (sub v))) as [l'|]; [|discriminate]. f_equal. apply list_nat_eqb_eq, Hdec.
Qed.

Lemma seq_unfold l : l <> [] ->
  weekdays_to_hexadecimal (ASeq l) = if nodupb l then Ok (fmt_02x (sum_bits l)) else Exc ValueError.
Proof. destruct l; [contradiction|reflexivity]. Qed.
Lemma set_unfold l : l <> [] -> weekdays_to_hexadecimal (ASet l) = Ok (fmt_02x (sum_bits l)).
Proof. destruct l; [contradiction|reflexivity]. Qed.

Theorem weekdays_encode_seq l : l <> [] -> NoDup l -> (forall d, In d l -> (d < n_days)%nat) ->
  weekdays_to_hexadecimal (ASeq l) = Ok (hexbyte (sum_bits l)).
Proof.
  intros Hne Hnd Hb. rewrite seq_unfold by exact Hne.
  replace (nodupb l) with true by (symmetry; apply nodupb_NoDup; exact Hnd).
  destruct (core_facts l Hne Hnd Hb) as [Hf _]. rewrite Hf. reflexivity.
Qed.
Theorem weekdays_encode_set l : l <> [] -> NoDup l -> (forall d, In d l -> (d < n_days)%nat) ->
  weekdays_to_hexadecimal (ASet l) = Ok (hexbyte (sum_bits l)).
Proof.
  intros Hne Hnd Hb. rewrite set_unfold by exact Hne.
  destruct (core_facts l Hne Hnd Hb) as [Hf _]. rewrite Hf. reflexivity.
Qed.
Theorem weekdays_reject_dup l : l <> [] -> ~ NoDup l -> weekdays_to_hexadecimal (ASeq l) = Exc ValueError.
Proof.
  intros Hne Hd. rewrite seq_unfold by exact Hne.
  destruct (nodupb l) eqn:En; [apply nodupb_NoDup in En; contradiction|reflexivity].
Qed.
