Require Import AS.Base.Prelude AS.Base.Hex.
Open Scope N_scope.

Lemma unhexlify_skipn n : forall s bs, unhexlify s = Some bs ->
  unhexlify (skipn (2*n) s) = Some (skipn n bs).
Proof.
  intros s bs H. revert n. revert s bs H. apply (unhexlify_ind (fun s bs => forall n, unhexlify (skipn (2*n) s) = Some (skipn n bs))).
  - intros n. rewrite !skipn_nil. reflexivity.
  - intros c d r x y bs Hc Hd Hr IH [|n]; [cbn [Nat.mul Nat.add skipn unhexlify]; rewrite Hc, Hd, Hr; reflexivity|].
    replace (2 * S n)%nat with (S (S (2*n))) by lia. apply IH.
Qed.

Lemma unhexlify_firstn n : forall s bs, unhexlify s = Some bs ->
  unhexlify (firstn (2*n) s) = Some (firstn n bs).
Proof.
  intros s bs H. revert n. revert s bs H. apply (unhexlify_ind (fun s bs => forall n, unhexlify (firstn (2*n) s) = Some (firstn n bs))).
  - intros n. rewrite !firstn_nil. reflexivity.
  - intros c d r x y bs Hc Hd _ IH [|n]; [reflexivity|].
    replace (2 * S n)%nat with (S (S (2*n))) by lia. cbn [firstn unhexlify]. rewrite Hc, Hd, IH. reflexivity.
Qed.

Lemma unhexlify_slice a b s bs : unhexlify s = Some bs ->
  unhexlify (pyslice (2*a) (2*b) s) = Some (pyslice a b bs).
Proof.
  intros H. unfold pyslice. replace (2*b - 2*a)%nat with (2*(b-a))%nat by lia.
  apply unhexlify_firstn, unhexlify_skipn, H.
Qed.

Lemma unhexlify_app_inv a r b : Nat.even (length a) = true -> unhexlify (a ++ r) = Some b ->
  exists x y, unhexlify a = Some x /\ unhexlify r = Some y /\ b = x ++ y.
Proof.
  intros He H. apply Nat.even_spec in He. destruct He as [k Hk].
  pose proof (unhexlify_firstn k _ _ H) as Hf. pose proof (unhexlify_skipn k _ _ H) as Hs.
  rewrite <- Hk, firstn_app, firstn_all, Nat.sub_diag, app_nil_r in Hf.
  rewrite <- Hk, skipn_app, skipn_all, Nat.sub_diag in Hs.
  exists (firstn k b), (skipn k b). rewrite firstn_skipn. auto.
Qed.

Lemma unhexlify_length s : forall bs, unhexlify s = Some bs -> length s = (2 * length bs)%nat.
Proof. revert s. apply unhexlify_ind; [reflexivity|]. intros c d r x y bs _ _ _ IH. cbn [length]. lia. Qed.

Lemma unhexlify_total s : Forall (fun c => is_hexchar c = true) s -> Nat.even (length s) = true ->
  exists bs, unhexlify s = Some bs.
Proof.
  induction s as [|c|c d r IH] using pairs_ind; intros Hh He; [exists []; reflexivity|discriminate|].
  inversion Hh as [|? ? Hc Hh']; subst. inversion Hh' as [|? ? Hd Hr]; subst.
  unfold is_hexchar in Hc, Hd. cbn [unhexlify].
  destruct (nib_of_char c); [|discriminate]. destruct (nib_of_char d); [|discriminate].
  destruct (IH Hr He) as [b Hb]. rewrite Hb. eexists. reflexivity.
Qed.
