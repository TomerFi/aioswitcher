(* Several bridge objects on one port table: each object's bookkeeping is exact, and objects do not touch each other *)
Require Import AS.Base.Prelude AS.Model.Lifecycle AS.Model.MultiBridge AS.Spec.BridgeHistory AS.Proofs.LifecycleProofs.

Definition held (s : mstate) (j q : nat) : Prop := m_os s q = MBridge j.
Definition rflag (s : mstate) (j : nat) : bool := m_running (m_objs s j).

(* [held] as a boolean, so that what an operation does to the table is an equation: [delivered_to s q j] is [owns (m_os s q) j] *)
Definition owns (w : mowner) (j : nat) : bool := match w with MBridge k => Nat.eqb j k | _ => false end.
Lemma owns_held s j q : owns (m_os s q) j = true <-> held s j q.
Proof. unfold held. destruct (m_os s q) as [| |k]; cbn; [split; discriminate..|]. rewrite Nat.eqb_eq. split; congruence. Qed.

Definition mcoherent (s : mstate) : Prop := forall j q, is_open (m_trans (m_objs s j) q) = owns (m_os s q) j.

(* object i takes the free port p (b = true: one turn of mstart_loop) or gives back the port p it holds (mclose_port) *)
Definition set_port (i : nat) (s : mstate) (p : nat) (b : bool) : mstate :=
  {| m_os := upd (m_os s) p (if b then MBridge i else MFree);
     m_objs := upd (m_objs s) i {| m_running := m_running (m_objs s i);
                                   m_trans := upd (m_trans (m_objs s i)) p (if b then TOpen else TClosed) |} |}.

Lemma set_port_spec i s p (b : bool) : mcoherent s -> m_os s p = (if b then MFree else MBridge i) ->
  mcoherent (set_port i s p b) /\ (forall j, rflag (set_port i s p b) j = rflag s j) /\
  (forall j q, owns (m_os (set_port i s p b) q) j = if Nat.eqb q p then (b && Nat.eqb j i)%bool else owns (m_os s q) j).
Proof.
  intros Hc E. split; [|split]; intros j; [intros q|..]; unfold rflag, set_port, upd; cbn [m_os m_objs].
  - destruct (Nat.eqb_spec j i) as [->|Hj]; cbn [m_trans]; destruct (Nat.eqb_spec q p) as [->|_]; try apply Hc.
    + destruct b; cbn; rewrite ?Nat.eqb_refl; reflexivity.
    + (* no other object held p, and none does *)
      rewrite (Hc j p), E. apply Nat.eqb_neq in Hj. destruct b; cbn; rewrite ?Hj; reflexivity.
  - destruct (Nat.eqb j i) eqn:E'; [apply Nat.eqb_eq in E'; subst|]; reflexivity.
  - intros q. destruct (Nat.eqb q p), b; reflexivity.
Qed.

Lemma mclose_port_spec i s p : mcoherent s ->
  mcoherent (mclose_port i s p) /\ (forall j, rflag (mclose_port i s p) j = rflag s j) /\
  (forall j q, owns (m_os (mclose_port i s p) q) j = (owns (m_os s q) j && negb (Nat.eqb j i && Nat.eqb q p))%bool).
Proof.
  intros Hc. assert (Hp := Hc i p). unfold mclose_port. destruct (m_trans (m_objs s i) p); cbn [is_open] in Hp.
  (* an open transport of object i means i holds the port: it is given back; otherwise nothing changes *)
  2: { assert (E : m_os s p = MBridge i) by (apply owns_held; symmetry; exact Hp).
       destruct (set_port_spec i s p false Hc E) as (Hc' & Hr & Hh). split; [exact Hc'|split; [exact Hr|]]. intros j q. rewrite Hh.
       destruct (Nat.eqb_spec q p) as [->|_]; [rewrite E; cbn; destruct (Nat.eqb j i); reflexivity|].
       rewrite Bool.andb_false_r, Bool.andb_true_r. reflexivity. }
  all: split; [exact Hc|split; [reflexivity|]]; intros j q; destruct (Nat.eqb_spec j i) as [->|_], (Nat.eqb_spec q p) as [->|_];
    rewrite <- ?Hp, ?Bool.andb_true_r; reflexivity.
Qed.

Lemma mclose_all_spec i l : forall s, mcoherent s ->
  mcoherent (fold_left (mclose_port i) l s) /\ (forall j, rflag (fold_left (mclose_port i) l s) j = rflag s j) /\
  (forall j q, owns (m_os (fold_left (mclose_port i) l s) q) j = (owns (m_os s q) j && negb (Nat.eqb j i && mem q l))%bool).
Proof.
  induction l as [|p l IH]; intros s Hc; cbn [fold_left].
  - split; [exact Hc|split; [reflexivity|]]. intros j q. rewrite Bool.andb_false_r, Bool.andb_true_r. reflexivity.
  - destruct (mclose_port_spec i s p Hc) as (Hc1 & R1 & H1). destruct (IH _ Hc1) as (Hc2 & R2 & H2).
    split; [exact Hc2|split]; [intros j; rewrite R2; apply R1|]. intros j q. rewrite H2, H1, mem_cons.
    destruct (owns (m_os s q) j), (Nat.eqb j i), (Nat.eqb q p), (mem q l); reflexivity.
Qed.

Lemma set_flag_spec s i b : let s' := set_obj s i {| m_running := b; m_trans := m_trans (m_objs s i) |} in
  (mcoherent s -> mcoherent s') /\ (forall j, rflag s' j = if Nat.eqb j i then b else rflag s j) /\ m_os s' = m_os s.
Proof.
  split; [|split; [|reflexivity]]; [intros Hc j q|intros j]; unfold rflag, set_obj, upd; cbn [m_os m_objs];
    destruct (Nat.eqb_spec j i) as [->|_]; try reflexivity; apply Hc.
Qed.

Lemma mstart_loop_spec i ports : forall opened s, mcoherent s ->
  let r := mstart_loop i ports opened s in
  mcoherent (fst r) /\ (forall j, rflag (fst r) j = if (snd r && Nat.eqb j i)%bool then true else rflag s j) /\
  (forall j q, owns (m_os (fst r) q) j =
     if snd r then (owns (m_os s q) j || (Nat.eqb j i && mem q ports))%bool
     else (owns (m_os s q) j && negb (Nat.eqb j i && mem q opened))%bool).
Proof.
  induction ports as [|p rest IH]; intros opened s Hc.
  - destruct (set_flag_spec s i true) as (Hc' & Hr & Hh). cbn [mstart_loop fst snd andb]. split; [exact (Hc' Hc)|split; [exact Hr|]].
    intros j q. rewrite Hh, Bool.andb_false_r, Bool.orb_false_r. reflexivity.
  - change (mstart_loop i (p :: rest) opened s) with
      (match m_os s p with MFree => mstart_loop i rest (p :: opened) (set_port i s p true)
                         | _ => (fold_left (mclose_port i) opened s, false) end).
    destruct (m_os s p) eqn:E.
    2,3: cbn [fst snd andb]; apply mclose_all_spec, Hc.
    destruct (set_port_spec i s p true Hc E) as (Hc1 & R1 & H1).
    destruct (IH (p :: opened) _ Hc1) as (Hc' & Hr & Hh). split; [exact Hc'|split]; [intros j; rewrite Hr, R1; reflexivity|].
    (* p was free: no object held it *)
    intros j q. rewrite Hh. destruct (snd (mstart_loop i rest (p :: opened) _)); rewrite H1, mem_cons; cbn [owns];
      (destruct (Nat.eqb_spec q p) as [->|_]; [rewrite E; cbn [owns]|]); destruct (Nat.eqb j i); cbn; rewrite ?Bool.andb_true_r; reflexivity.
Qed.

Definition MInv (cfg : nat -> list nat) (s : mstate) : Prop :=
  mcoherent s /\ forall i p, owns (m_os s p) i = (rflag s i && mem p (cfg i))%bool.

Definition names (a : maction) (i : nat) : Prop := match a with MStart j | MStop j => j = i | _ => False end.

Lemma mforeign_inv cfg s p w : MInv cfg s -> (forall j, owns (m_os s p) j = false) -> (forall j, owns w j = false) ->
  MInv cfg {| m_os := upd (m_os s) p w; m_objs := m_objs s |}.
Proof.
  intros [Hc Hb] Hp Hw.
  assert (Hh : forall j q, owns (upd (m_os s) p w q) j = owns (m_os s q) j).
  { intros j q. unfold upd. destruct (Nat.eqb_spec q p) as [->|_]; [|reflexivity]. rewrite Hp. apply Hw. }
  split; intros j q; cbn [m_os m_objs]; rewrite Hh; [apply Hc|apply Hb].
Qed.

(* the invariant makes an object's ports a function of its flag, so the flag is all that needs a frame property *)
Lemma mstep_spec cfg s a : MInv cfg s ->
  MInv cfg (mstep cfg s a) /\ forall i, ~ names a i -> rflag (mstep cfg s a) i = rflag s i.
Proof.
  intros HI. pose proof HI as [Hc Hb]. destruct a as [i|i|p|p]; cbn [mstep names].
  (* a foreign socket takes or gives back a port no object holds *)
  3,4: destruct (m_os s p) eqn:E; (split; [|reflexivity]); try exact HI; apply mforeign_inv; [exact HI|rewrite E|]; reflexivity.
  - destruct (mstart_loop_spec i (cfg i) [] s Hc) as (Hc' & Hr & Hh). unfold mstart.
    destruct (mstart_loop i (cfg i) [] s) as [s' ok]. cbn [fst snd mem existsb] in *. split; [split; [exact Hc'|]|]; intros k.
    + intros q. rewrite Hh, Hr, Hb. destruct ok, (Nat.eqb_spec k i) as [->|_]; cbn [andb orb negb];
        rewrite ?Bool.andb_true_r, ?Bool.orb_false_r; try reflexivity. destruct (rflag s i), (mem q (cfg i)); reflexivity.
    + intros Hk. apply Nat.eqb_neq in Hk. rewrite Nat.eqb_sym in Hk. rewrite Hr, Hk, Bool.andb_false_r. reflexivity.
  - destruct (mclose_all_spec i (cfg i) s Hc) as (Hc1 & R1 & H1). unfold mstop.
    destruct (set_flag_spec (fold_left (mclose_port i) (cfg i) s) i false) as (Hc' & Hr & Hh).
    split; [split; [exact (Hc' Hc1)|]|]; intros k.
    + intros q. rewrite Hh, H1, Hr, R1, Hb. destruct (Nat.eqb_spec k i) as [->|_]; cbn [andb negb]; [|apply Bool.andb_true_r].
      destruct (rflag s i), (mem q (cfg i)); reflexivity.
    + intros Hk. apply Nat.eqb_neq in Hk. rewrite Nat.eqb_sym in Hk. rewrite Hr, R1, Hk. reflexivity.
Qed.

Lemma minit_inv cfg : MInv cfg minit.
Proof. split; intros ? ?; reflexivity. Qed.

Theorem mrun_inv cfg acts : MInv cfg (mrun cfg acts).
Proof. apply (fold_left_inv (MInv cfg)); [intros s a H; apply mstep_spec, H|apply minit_inv]. Qed.
