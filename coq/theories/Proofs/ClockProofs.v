Require Import AS.Base.Prelude AS.Base.Hex AS.Base.Dec AS.Model.ScheduleTools AS.Model.ScheduleParser AS.Model.Clock
  AS.Model.Messages AS.Spec.FrameSpec AS.Proofs.MessagesProofs AS.Proofs.ClockStrings.
Open Scope Z_scope.

Lemma offset_at_in z t : In (offset_at z t) (offsets z).
Proof.
  assert (H : forall (l : list (Z * Z)) (acc : Z),
            In (fold_left (fun (acc : Z) '(at_, off) => if at_ <=? t then off else acc) l acc) (acc :: map snd l)).
  { induction l as [|[a o] l IH]; intros acc; [left; reflexivity|]. cbn [fold_left map snd].
    destruct (a <=? t).
    - right. apply IH.
    - destruct (IH acc) as [H|H]; [left; exact H|right; right; exact H]. }
  apply H.
Qed.

(* C11: the mktime model returns a pre-image whenever the local time exists *)
Theorem mktime_finds z L : (exists t, local_secs z t = L) -> local_secs z (mktime_model z L) = L.
Proof.
  intros [t0 H0]. unfold mktime_model.
  destruct (find (fun o => local_secs z (L - o) =? L) (offsets z)) as [o|] eqn:E.
  - apply find_some in E. destruct E as [_ E]. apply Z.eqb_eq in E. exact E.
  - exfalso. pose proof (find_none _ _ E (offset_at z t0) (offset_at_in z t0)) as Hn.
    apply Z.eqb_neq in Hn. apply Hn. unfold local_secs in H0. replace (L - offset_at z t0) with t0 by lia. exact H0.
Qed.

Lemma hm_of_local z t d h m : (h < 24)%N -> (m < 60)%N ->
  local_secs z t = 86400 * d + Z.of_N (3600 * h + 60 * m) -> hm_of z t = (h, m).
Proof.
  (* 3600 h + 60 m is below a day, hence the remainder modulo 86400; dividing by 3600 and by 60 reads h and m back *)
  intros Hh Hm H. unfold hm_of. f_equal; zify; Z.to_euclidean_division_equations; lia.
Qed.

Lemma hm_of_lt z t : (fst (hm_of z t) < 24 /\ snd (hm_of z t) < 60)%N.
Proof.
  unfold hm_of. cbn [fst snd]. pose proof (Z.mod_pos_bound (local_secs z t) 86400 ltac:(lia)).
  zify; Z.to_euclidean_division_equations; lia.
Qed.

Lemma fmt_hm_clock z t : exists k, clock_minutes (fmt_hm z t) = Some k.
Proof.
  unfold fmt_hm. destruct (hm_of_lt z (Z.of_N t)) as [Hh Hm]. destruct (hm_of z (Z.of_N t)) as [h m].
  exists (60 * h + m)%N. rewrite clock_minutes_strptime, strptime_two_digits by assumption. reflexivity.
Qed.

Lemma decode_le32 z s : (s < 4294967296)%N -> hexadecimale_timestamp_to_localtime z (hexlify (le32 s)) = Ok (fmt_hm z s).
Proof.
  intros Hs. unfold hexadecimale_timestamp_to_localtime.
  change (pyslice 6 8 ?h ++ pyslice 4 6 ?h ++ pyslice 2 4 ?h ++ pyslice 0 2 ?h) with (swap4 h).
  rewrite int16_swap4_le32 by exact Hs. unfold fmt_hm. reflexivity.
Qed.

Lemma time_enc_z_ok z now s h m : strptime_HM s = Ok (h, m) ->
  time_to_hexadecimal_timestamp_z false z now s = stamp (mktime_model z (86400 * today z now + Z.of_N (3600 * h + 60 * m))).
Proof.
  intros H. destruct (clock_string_split s h m (proj1 (strptime_HM_iff s h m) H)) as (t0 & t1 & Hs & Hl).
  unfold time_to_hexadecimal_timestamp_z. rewrite Hs, Hl, H. reflexivity.
Qed.

(* C11 round trip over every zone table, for every string strptime accepts: what comes back is its "%02d:%02d" form *)
Theorem clock_roundtrip_string z now s h m : strptime_HM s = Ok (h, m) ->
  let L := 86400 * today z now + Z.of_N (3600 * h + 60 * m) in
  (exists t, local_secs z t = L) -> 0 <= mktime_model z L < 4294967296 ->
  let t := mktime_model z L in
  time_to_hexadecimal_timestamp_z false z now s = Ok (hexlify (le32 (Z.to_N t))) /\
  local_secs z t = L /\
  hexadecimale_timestamp_to_localtime z (hexlify (le32 (Z.to_N t))) = Ok (two_digits h ++ [58%N] ++ two_digits m).
Proof.
  intros Hs L Hex Hrange t.
  assert (Hloc : local_secs z t = L) by (apply mktime_finds, Hex).
  destruct (proj1 (strptime_HM_iff s h m) Hs) as (_ & _ & _ & _ & _ & Lh & Lm).
  split; [|split; [exact Hloc|]].
  - rewrite (time_enc_z_ok z now s h m Hs). fold L t. unfold stamp.
    rewrite (proj2 (Z.leb_le 0 t)), (proj2 (Z.ltb_lt t 4294967296)) by apply Hrange. reflexivity.
  - rewrite decode_le32 by lia. unfold fmt_hm. rewrite Z2N.id, (hm_of_local z t (today z now) h m Lh Lm Hloc) by lia. reflexivity.
Qed.

Theorem clock_roundtrip z now hm : (hm < 1440)%N ->
  let h := (hm / 60)%N in let m := (hm mod 60)%N in
  let L := 86400 * today z now + Z.of_N (3600 * h + 60 * m) in
  (exists t, local_secs z t = L) ->                       (* the wall-clock time exists today *)
  0 <= mktime_model z L < 4294967296 ->
  exists t, time_to_hexadecimal_timestamp_z false z now (hhmm hm) = Ok (hexlify (le32 (Z.to_N t))) /\
            local_secs z t = L /\
            hexadecimale_timestamp_to_localtime z (hexlify (le32 (Z.to_N t))) = Ok (hhmm hm).
Proof.
  intros Hhm h m L Hex Hrange. exists (mktime_model z L).
  exact (clock_roundtrip_string z now (hhmm hm) _ _ (strptime_hhmm hm Hhm) Hex Hrange).
Qed.
Print Assumptions clock_roundtrip.
