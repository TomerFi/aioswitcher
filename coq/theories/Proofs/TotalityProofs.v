Require Import AS.Base.Prelude AS.Base.Hex AS.Model.Messages.
Open Scope N_scope.

Lemma int16_fold_bound s : forall a n,
  fold_left (fun acc c => match acc, nib_of_char c with
                          | Some a, Some d => Some (16 * a + d) | _, _ => None end) s (Some a) = Some n ->
  n < (a + 1) * 16 ^ N.of_nat (length s).
Proof.
  induction s as [|c s IH]; intros a n H.
  - cbn in *. inversion H; subst. lia.
  - cbn [fold_left] in H. destruct (nib_of_char c) as [d|] eqn:E.
    + apply IH in H. apply nib_of_char_lt in E. cbn [length]. rewrite Nat2N.inj_succ, N.pow_succ_r'. nia.
    + exfalso. clear -H. induction s as [|x s IHs]; [discriminate|]. apply IHs. exact H.
Qed.

Lemma int16_bound s n : int16 s = Some n -> n < 16 ^ N.of_nat (length s).
Proof.
  destruct s as [|c s]; [discriminate|]. intros H. apply int16_fold_bound in H. lia.
Qed.

Lemma swap4_length_le h : (length (swap4 h) <= 8)%nat.
Proof.
  unfold swap4. rewrite !app_length.
  pose proof (pyslice_length_le 6 8 h). pose proof (pyslice_length_le 4 6 h).
  pose proof (pyslice_length_le 2 4 h). pose proof (pyslice_length_le 0 2 h). lia.
Qed.

Definition kv (e : exn) : Prop := e = KeyError \/ e = ValueError.

(* a computation that raises nothing outside P; the parsers are binds of such *)
Definition raises_only {A} (P : exn -> Prop) (r : result A) : Prop := forall e, r = Exc e -> P e.
Lemma only_ok {A} P (a : A) : raises_only P (Ok a).
Proof. intros e H. discriminate. Qed.
Lemma only_exc {A} (P : exn -> Prop) e : P e -> raises_only P (@Exc A e).
Proof. intros H e' [= <-]. exact H. Qed.
Lemma only_bind {A B} P (r : result A) (f : A -> result B) :
  raises_only P r -> (forall a, raises_only P (f a)) -> raises_only P (bind r f).
Proof. intros Hr Hf e. destruct r as [a|e']; cbn [bind]; [apply Hf|intros [= <-]; apply Hr; reflexivity]. Qed.
Lemma only_int16r (P : exn -> Prop) s : P ValueError -> raises_only P (int16r s).
Proof. intros H. unfold int16r. destruct (int16 s); [apply only_ok|apply only_exc, H]. Qed.

(* OverflowError needs hours >= 2^31: out of reach of eight hex digits *)
Lemma only_get_time (P : exn -> Prop) hex lo hi : P ValueError -> raises_only P (get_time hex lo hi).
Proof.
  intros H. unfold get_time, int16r. destruct (int16 (swap4 (pyslice lo hi hex))) as [secs|] eqn:E; [|apply only_exc, H].
  cbn [of_option bind]. unfold seconds_to_iso_time. destruct (secs / 3600 <? 24); [apply only_ok|].
  destruct (N.ltb_spec (secs / 3600) 2147483648) as [_|Hbig]; [apply only_exc, H|exfalso].
  apply int16_bound in E. pose proof (swap4_length_le (pyslice lo hi hex)) as Hl.
  assert (secs < 16 ^ 8) by (eapply N.lt_le_trans; [exact E|apply N.pow_le_mono_r; lia]).
  assert (secs / 3600 < 2147483648) by (apply N.div_lt_upper_bound; lia). lia.
Qed.

Theorem parse_state_reply_exn r e : parse_state_reply r = Exc e -> kv e.
Proof.
  revert e. change (raises_only kv (parse_state_reply r)). unfold parse_state_reply.
  assert (V : kv ValueError) by (right; reflexivity).
  apply only_bind; [|intros st].
  { destruct (bytes_eq_dec _ _); [apply only_ok|]. destruct (bytes_eq_dec _ _); [apply only_ok|apply only_exc; left; reflexivity]. }
  do 3 (apply only_bind; [apply only_get_time, V|intros ?]). apply only_bind; [apply only_int16r, V|intros pw]. apply only_ok.
Qed.

(* the API wrapper:  try: SwitcherStateResponse(..)  except (KeyError, ValueError): raise RuntimeError *)
Definition get_state_after_login (state_resp : bytes) : result state_fields :=
  match parse_state_reply state_resp with
  | Ok r => match state_resp with [] => Exc RuntimeError | _ => Ok r end   (* response.successful *)
  | Exc e => if is_key_error e || is_value_error e then Exc RuntimeError else Exc e
  end.

Theorem get_state_total state_resp :
  (exists r, get_state_after_login state_resp = Ok r) \/ get_state_after_login state_resp = Exc RuntimeError.
Proof.
  unfold get_state_after_login. destruct (parse_state_reply state_resp) as [r|e] eqn:E.
  - destruct state_resp; [right; reflexivity|left; eexists; reflexivity].
  - right. destruct (parse_state_reply_exn _ _ E) as [-> | ->]; reflexivity.
Qed.
Print Assumptions get_state_total.
