(* Clock strings: the model's strptime("%H:%M") and the Spec's clock_minutes accept the same strings (one or two digits, a colon,
   one or two digits, hour below 24, minute below 60) and read the same hour and minute from them; "%02d:%02d" writes such a string *)
Require Import AS.Base.Prelude AS.Base.Hex AS.Base.Dec AS.Model.ScheduleTools AS.Spec.FrameSpec.
Open Scope N_scope.

Definition clock_string (s : bytes) (h m : N) : Prop :=
  exists hs ms, s = hs ++ 58 :: ms /\ digits2 hs = Some h /\ digits2 ms = Some m /\ h < 24 /\ m < 60.

Lemma digit_facts a : is_digit a = true -> (a =? 58) = false /\ is_space a = false /\ 48 <= a <= 57.
Proof.
  unfold is_digit, is_space. intros H. apply andb_prop in H. destruct H as [H1 H2]. apply N.leb_le in H1, H2.
  split; [apply N.eqb_neq; lia|]. split; [|lia].
  rewrite (proj2 (N.eqb_neq a 32)), (proj2 (N.leb_gt a 13)), andb_false_r by lia. reflexivity.
Qed.

(* the regex's hour 2[0-3]|[0-1]\d, as a bound on the value *)
Lemma hour_cond a b : is_digit a = true -> is_digit b = true ->
  ((a =? 50) && (b <=? 51) || (a <=? 49)) = (10 * dval a + dval b <? 24).
Proof.
  intros Ha Hb. apply digit_facts in Ha, Hb. unfold dval. apply eq_true_iff_eq.
  rewrite orb_true_iff, andb_true_iff, N.eqb_eq, !N.leb_le, N.ltb_lt. lia.
Qed.

Lemma digits2_shape x v : digits2 x = Some v ->
  (exists a, x = [a] /\ is_digit a = true /\ v = dval a) \/
  (exists a b, x = [a; b] /\ is_digit a = true /\ is_digit b = true /\ v = 10 * dval a + dval b).
Proof.
  destruct x as [|a [|b [|c r]]]; cbn [digits2]; try discriminate.
  - destruct (is_digit a) eqn:Ea; [|discriminate]. intros H; inversion H. left. exists a. auto.
  - destruct (is_digit a) eqn:Ea; [|discriminate]. destruct (is_digit b) eqn:Eb; [|discriminate].
    intros H; inversion H. right. exists a, b. auto.
Qed.

Lemma digits2_head c r v : digits2 (c :: r) = Some v -> is_digit c = true.
Proof. destruct r as [|b [|? ?]]; cbn [digits2]; destruct (is_digit c); try discriminate; reflexivity. Qed.

Lemma digits_no_colon x v : digits2 x = Some v -> ~ In 58 x /\ lstrip x = x.
Proof.
  intros H. destruct (digits2_shape x v H) as [[a [-> [Ha _]]]|[a [b [-> [Ha [Hb _]]]]]].
  - destruct (digit_facts a Ha) as [E [S _]]. split; [intros [K|[]]; subst; discriminate|]. cbn [lstrip]. rewrite S. reflexivity.
  - destruct (digit_facts a Ha) as [E [S _]].
    split; [intros [K|[K|[]]]; subst; discriminate|]. cbn [lstrip]. rewrite S. reflexivity.
Qed.

Lemma two_digits_eq n : n < 100 -> two_digits n = [dchar (n / 10); dchar (n mod 10)].
Proof.
  intros Hn. unfold two_digits. destruct (N.ltb_spec n 10) as [Hl|Hl].
  - rewrite N.div_small, N.mod_small by exact Hl. reflexivity.
  - (* str_N has fuel 1 + log2 n, and two digits need two steps *)
    unfold str_N. pose proof (N.log2_le_mono 8 n ltac:(lia)) as Hlog. change (N.log2 8) with 3 in Hlog.
    destruct (N.to_nat (N.log2 n)) as [|k] eqn:Ek; [lia|]. cbn [dec_fuel].
    rewrite (proj2 (N.ltb_ge n 10) Hl).
    replace (n / 10 <? 10) with true by (symmetry; apply N.ltb_lt, N.div_lt_upper_bound; lia). reflexivity.
Qed.

Lemma is_digit_dchar d : d < 10 -> is_digit (dchar d) = true.
Proof. intros H. unfold is_digit, dchar. rewrite (proj2 (N.leb_le 48 (48 + d))), (proj2 (N.leb_le (48 + d) 57)) by lia. reflexivity. Qed.
Lemma dval_dchar d : dval (dchar d) = d.
Proof. unfold dval, dchar. lia. Qed.

Lemma digits2_two_digits n : n < 100 -> digits2 (two_digits n) = Some n.
Proof.
  intros Hn. rewrite two_digits_eq by exact Hn. cbn [digits2].
  rewrite !is_digit_dchar, !dval_dchar by (try (apply N.div_lt_upper_bound; lia); apply N.mod_lt; discriminate).
  cbn [andb]. f_equal. symmetry. apply N.div_mod. discriminate.
Qed.

Lemma split_at_colon_spec s : forall acc x y, split_at_colon s acc = Some (x, y) -> rev acc ++ s = x ++ 58 :: y.
Proof.
  induction s as [|c r IH]; intros acc x y H; cbn [split_at_colon] in H; [discriminate|].
  destruct (N.eqb_spec c 58) as [->|Hc]; [inversion H; reflexivity|].
  rewrite <- (IH _ _ _ H). cbn [rev]. rewrite <- app_assoc. reflexivity.
Qed.

Lemma split_at_colon_skip x : ~ In 58 x -> forall s acc, split_at_colon (x ++ s) acc = split_at_colon s (rev x ++ acc).
Proof.
  induction x as [|a x IH]; intros Hn s acc; [reflexivity|]. cbn [app split_at_colon rev].
  destruct (N.eqb_spec a 58) as [E|E]; [exfalso; apply Hn; left; exact E|].
  rewrite IH, <- app_assoc by (intros K; apply Hn; right; exact K). reflexivity.
Qed.

Lemma split_at_colon_first hs ms : ~ In 58 hs -> split_at_colon (hs ++ 58 :: ms) [] = Some (hs, ms).
Proof.
  intros Hn. rewrite split_at_colon_skip by exact Hn. cbn [split_at_colon]. rewrite N.eqb_refl, app_nil_r, rev_involutive. reflexivity.
Qed.

Lemma split_at_colon_none x : ~ In 58 x -> split_at_colon x [] = None.
Proof. intros Hn. rewrite <- (app_nil_r x), split_at_colon_skip by exact Hn. reflexivity. Qed.

Lemma split_colon_aux_at s : forall cur, split_colon_aux s cur =
  match split_at_colon s cur with Some (x, y) => x :: split_colon_aux y [] | None => [rev cur ++ s] end.
Proof.
  induction s as [|c r IH]; intros cur; cbn [split_colon_aux split_at_colon]; [rewrite app_nil_r; reflexivity|].
  destruct (c =? 58); [reflexivity|]. rewrite IH. cbn [rev]. rewrite <- app_assoc. reflexivity.
Qed.

(* a literal 58 in a pattern is compiled into a match on the bits of the byte: six levels decide it *)
Lemma match_colon {A} (c : N) (x y : A) : match c with 58 => x | _ => y end = if c =? 58 then x else y.
Proof. destruct c as [|p]; [reflexivity|]. do 6 (destruct p as [p|p|]; try reflexivity). Qed.

Lemma parse_hour_eq s : parse_hour s = match s with
  | a :: b :: c :: r =>
      if c =? 58 then (if is_digit a && is_digit b && (((a =? 50) && (b <=? 51)) || (a <=? 49)) then Some (10 * dval a + dval b, r) else None)
      else if b =? 58 then (if is_digit a then Some (dval a, c :: r) else None) else None
  | [a; b] => if b =? 58 then (if is_digit a then Some (dval a, []) else None) else None
  | _ => None end.
Proof.
  destruct s as [|a [|b [|c r]]]; try reflexivity; unfold parse_hour; rewrite !match_colon; [reflexivity|].
  (* the compiled match looks at the second character before the third *)
  destruct (c =? 58), (b =? 58); reflexivity.
Qed.

Lemma parse_minute_eq r : parse_minute r = match digits2 r with Some m => if m <? 60 then Some m else None | None => None end.
Proof.
  destruct r as [|a [|b [|c r]]]; try reflexivity; cbn [parse_minute digits2].
  - destruct (is_digit a) eqn:Ea; [|reflexivity]. apply digit_facts in Ea. unfold dval.
    rewrite (proj2 (N.ltb_lt (a - 48) 60)) by lia. reflexivity.
  - destruct (is_digit a) eqn:Ea, (is_digit b) eqn:Eb; cbn [andb]; try reflexivity; [|rewrite andb_false_r; reflexivity].
    (* the regex's minute [0-5]\d *)
    apply digit_facts in Ea, Eb. unfold dval.
    destruct (N.leb_spec a 53), (N.ltb_spec (10 * (a - 48) + (b - 48)) 60); try reflexivity; lia.
Qed.

Theorem strptime_HM_iff s h m : strptime_HM s = Ok (h, m) <-> clock_string s h m.
Proof.
  unfold strptime_HM. rewrite parse_hour_eq. split.
  - intros H. destruct s as [|a [|b [|c r]]]; try discriminate.
    + destruct (b =? 58), (is_digit a); discriminate.
    + destruct (N.eqb_spec c 58) as [->|Hc]; [|destruct (N.eqb_spec b 58) as [->|Hb]; [|discriminate]].
      * destruct (is_digit a) eqn:Ea, (is_digit b) eqn:Eb; try discriminate. cbn [andb] in H.
        rewrite (hour_cond a b Ea Eb) in H. destruct (N.ltb_spec (10 * dval a + dval b) 24); [|discriminate]. rewrite parse_minute_eq in H.
        destruct (digits2 r) as [m'|] eqn:Em; [|discriminate]. destruct (N.ltb_spec m' 60); [|discriminate].
        assert (h = 10 * dval a + dval b /\ m = m') as [-> ->] by (split; congruence). exists [a; b], r. cbn [digits2]. rewrite Ea, Eb. auto.
      * destruct (is_digit a) eqn:Ea; [|discriminate]. rewrite parse_minute_eq in H.
        destruct (digits2 (c :: r)) as [m'|] eqn:Em; [|discriminate]. destruct (N.ltb_spec m' 60); [|discriminate].
        assert (h = dval a /\ m = m') as [-> ->] by (split; congruence). exists [a], (c :: r). cbn [digits2]. rewrite Ea. apply digit_facts in Ea. unfold dval. repeat split; auto; lia.
  - intros (hs & ms & -> & Hh & Hm & Lh & Lm).
    assert (Pm : parse_minute ms = Some m) by (rewrite parse_minute_eq, Hm, (proj2 (N.ltb_lt m 60) Lm); reflexivity).
    destruct (digits2_shape hs h Hh) as [[a [-> [Ha ->]]]|[a [b [-> [Ha [Hb ->]]]]]]; cbn [app].
    + (* the three-character pattern is tried first and looks at the first minute character: a digit, not a colon *)
      destruct ms as [|c ms']; [discriminate|].
      rewrite (proj1 (digit_facts c (digits2_head c ms' m Hm))), N.eqb_refl, Ha, Pm. reflexivity.
    + rewrite N.eqb_refl, Ha, Hb, (hour_cond a b Ha Hb), (proj2 (N.ltb_lt _ 24) Lh). cbn [andb]. rewrite Pm. reflexivity.
Qed.

Theorem clock_minutes_strptime s :
  clock_minutes s = match strptime_HM s with Ok (h, m) => Some (60 * h + m) | Exc _ => None end.
Proof.
  unfold clock_minutes. destruct (strptime_HM s) as [[h m]|e] eqn:E.
  - apply strptime_HM_iff in E. destruct E as (hs & ms & -> & Hh & Hm & Lh & Lm).
    rewrite split_at_colon_first by (apply (digits_no_colon hs h Hh)).
    rewrite Hh, Hm, (proj2 (N.ltb_lt h 24) Lh), (proj2 (N.ltb_lt m 60) Lm). reflexivity.
  - destruct (split_at_colon s []) as [[x y]|] eqn:Es; [|reflexivity].
    destruct (digits2 x) as [h|] eqn:Eh; [|reflexivity]. destruct (digits2 y) as [m|] eqn:Em; [|reflexivity].
    destruct ((h <? 24) && (m <? 60)) eqn:Eb; [|reflexivity].
    apply andb_prop in Eb. destruct Eb as [Lh Lm]. apply N.ltb_lt in Lh, Lm.
    assert (C : strptime_HM s = Ok (h, m)) by (apply strptime_HM_iff; exists x, y; rewrite <- (split_at_colon_spec s [] x y Es); auto).
    congruence.
Qed.

Lemma clock_minutes_some s v : clock_minutes s = Some v ->
  exists h m, strptime_HM s = Ok (h, m) /\ v = 60 * h + m /\ v < 1440.
Proof.
  rewrite clock_minutes_strptime. destruct (strptime_HM s) as [[h m]|e] eqn:E; [|discriminate]. intros H. assert (v = 60 * h + m) as -> by congruence.
  exists h, m. apply strptime_HM_iff in E. destruct E as (_ & _ & _ & _ & _ & Lh & Lm). split; [reflexivity|lia].
Qed.

Lemma strptime_two_digits h m : h < 24 -> m < 60 -> strptime_HM (two_digits h ++ [58] ++ two_digits m) = Ok (h, m).
Proof.
  intros Hh Hm. apply strptime_HM_iff. exists (two_digits h), (two_digits m). rewrite !digits2_two_digits by lia. auto.
Qed.

Lemma strptime_hhmm k : k < 1440 -> strptime_HM (hhmm k) = Ok (k / 60, k mod 60).
Proof. intros Hk. apply strptime_two_digits; [apply N.div_lt_upper_bound; lia|apply N.mod_lt; discriminate]. Qed.

Lemma clock_minutes_hhmm k : k < 1440 -> clock_minutes (hhmm k) = Some k.
Proof.
  intros Hk. rewrite clock_minutes_strptime, strptime_hhmm by exact Hk. f_equal. symmetry. apply N.div_mod. discriminate.
Qed.

(* time_to_hexadecimal_timestamp splits at the colons, strips the first field and parses again: on a clock string that changes nothing *)
Lemma clock_string_split s h m : clock_string s h m -> exists t0 t1, split_colon s = [t0; t1] /\ lstrip t0 ++ [58] ++ t1 = s.
Proof.
  intros (hs & ms & -> & Hh & Hm & _). destruct (digits_no_colon hs h Hh) as [Nh Sh]. destruct (digits_no_colon ms m Hm) as [Nm _].
  exists hs, ms. split; [|rewrite Sh; reflexivity].
  unfold split_colon. rewrite split_colon_aux_at, (split_at_colon_first hs ms Nh), split_colon_aux_at, (split_at_colon_none ms Nm). reflexivity.
Qed.

Definition stamp (t : Z) : result bytes :=
  if ((0 <=? t) && (t <? 4294967296))%Z then Ok (hexlify (le32 (Z.to_N t))) else Exc StructError.

Lemma time_enc_some base s v : clock_minutes s = Some v -> time_to_hexadecimal_timestamp false base s = stamp (base + Z.of_N (60 * v)).
Proof.
  intros H. destruct (clock_minutes_some s v H) as (h & m & P & -> & _).
  destruct (clock_string_split s h m (proj1 (strptime_HM_iff s h m) P)) as (t0 & t1 & Hs & Hl).
  unfold time_to_hexadecimal_timestamp. rewrite Hs, Hl, P. replace (60 * (60 * h + m)) with (3600 * h + 60 * m) by lia. reflexivity.
Qed.
Lemma time_enc_none base s : clock_minutes s = None -> exists e, time_to_hexadecimal_timestamp false base s = Exc e.
Proof.
  rewrite clock_minutes_strptime. destruct (strptime_HM s) as [[h m]|e] eqn:E; [discriminate|]. intros _.
  unfold time_to_hexadecimal_timestamp. destruct (split_colon s) as [|t0 [|t1 r]]; try (eexists; reflexivity).
  destruct (strptime_HM (lstrip t0 ++ [58] ++ t1)) as [hm|e0]; cbn [bind]; [|eexists; reflexivity].
  rewrite E. eexists; reflexivity.
Qed.

Lemma timedelta_str_day t : t < 86400 -> timedelta_str t = fmt_hmmss t.
Proof. intros H. unfold timedelta_str. rewrite N.div_small, N.mod_small by exact H. reflexivity. Qed.

(* C14 for every pair of clock strings the Spec accepts, one-digit hours and minutes included *)
Theorem calc_duration_clock st en s e : clock_minutes st = Some s -> clock_minutes en = Some e ->
  calc_duration st en = Ok (fmt_hmmss (((e + 1440 - s) mod 1440) * 60)).
Proof.
  intros Hs He. destruct (clock_minutes_some st s Hs) as (hs & ms & Ps & -> & Ls). destruct (clock_minutes_some en e He) as (he & me & Pe & -> & Le).
  unfold calc_duration. rewrite Ps, Pe. cbn [bind fst snd]. set (s := 60 * hs + ms) in *. set (e := 60 * he + me) in *.
  replace ((if e <? s then e + 1440 else e) - s) with ((e + 1440 - s) mod 1440).
  - rewrite timedelta_str_day; [reflexivity|]. pose proof (N.mod_lt (e + 1440 - s) 1440 ltac:(discriminate)). lia.
  - destruct (N.ltb_spec e s); [rewrite N.mod_small by lia; reflexivity|].
    replace (e + 1440 - s) with ((e - s) + 1 * 1440) by lia. rewrite N.mod_add, N.mod_small by lia. reflexivity.
Qed.
