(* C17 as a refinement: the lifecycle model of one bridge object against the history reading of Spec/BridgeHistory.v *)
Require Import AS.Base.Prelude AS.Model.Lifecycle AS.Spec.BridgeHistory AS.Proofs.LifecycleProofs.

Definition is_foreign (o : owner) : bool := match o with Foreign => true | _ => false end.

(* the history state is read off the model state; which ports the bridge holds is then settled by the invariant *)
Definition R (ports : list nat) (s : bstate) (a : astate) : Prop :=
  Inv ports s /\ running s = a_run a /\ forall q, a_foreign a q = is_foreign (os s q).

Lemma R_owner ports s a : R ports s a -> forall q, os s q = a_owner ports a q.
Proof.
  intros ([_ Hb] & Hr & Hf) q. unfold a_owner. rewrite <- Hr, <- Hb, Hf. destruct (os s q); reflexivity.
Qed.

Lemma all_free_R ports s a : ports <> [] -> R ports s a ->
  all_free s ports = negb (a_run a || existsb (a_foreign a) ports).
Proof.
  intros Hne ([_ Hb] & Hr & Hf). rewrite <- Hr. unfold all_free. destruct (running s) eqn:Ra; cbn [orb negb].
  - destruct ports as [|p rest]; [contradiction|]. cbn [forallb]. specialize (Hb p). rewrite mem_cons, Nat.eqb_refl in Hb.
    destruct (os s p); [discriminate..|reflexivity].
  - assert (Hf' : forall q, is_free (os s q) = negb (a_foreign a q)).
    { intros q. rewrite Hf. specialize (Hb q). destruct (os s q); [reflexivity..|discriminate]. }
    clear - Hf'. induction ports as [|x l IH]; [reflexivity|]. cbn [forallb existsb]. rewrite IH, Hf', negb_orb. reflexivity.
Qed.

Lemma step_refines ports s a act : NoDup ports -> ports <> [] -> R ports s a ->
  snd (step false ports s act) = snd (a_step ports a act) /\ R ports (fst (step false ports s act)) (fst (a_step ports a act)).
Proof.
  intros Hnd Hne HR. pose proof HR as ([Hc Hb] & Hr & Hf). pose proof (step_inv ports s act (proj1 HR)) as HI'.
  destruct act as [| |p|p|p]; cbn [step a_step] in *.
  - (* the two sides decide alike (all_free_R), and start_loop_spec says what the model did *)
    destruct (start_loop_spec ports [] s Hc) as (_ & Hos'). pose proof (start_loop_ok ports Hnd [] s) as Hok.
    rewrite (all_free_R ports s a Hne HR) in Hok. unfold start in *. destruct (start_loop false ports [] s) as [s' ok].
    cbn [fst snd] in *. subst ok.
    destruct (a_run a || existsb (a_foreign a) ports)%bool eqn:Cond; cbn [negb fst snd] in *;
      destruct Hos' as [Hr' Hos']; (split; [reflexivity|]); (split; [exact HI'|]).
    { split; [congruence|]. intros q. rewrite Hos'. apply Hf. }
    split; [exact Hr'|]. intros q. cbn [a_foreign]. rewrite Hos'. destruct (mem q ports) eqn:M; [cbn [is_foreign]|apply Hf].
    (* no configured port was in foreign hands, or start would have raised *)
    apply orb_false_elim in Cond. destruct Cond as [_ Ex]. destruct (a_foreign a q) eqn:F; [|reflexivity].
    rewrite <- Ex. symmetry. apply existsb_exists. exists q. split; [apply mem_In, M|exact F].
  - destruct (close_all_spec ports s Hc) as (_ & _ & Hos'). cbn [fst snd]. split; [reflexivity|]. split; [exact HI'|].
    split; [reflexivity|]. intros q. cbn [stop os a_foreign]. rewrite Hos', Hf. destruct (mem q ports), (os s q); reflexivity.
  - rewrite <- Hr, <- Hb, Hf. destruct (os s p) eqn:E; cbn [is_bridge is_foreign orb fst snd] in *; (split; [reflexivity|]);
      [|exact HR..]. split; [exact HI'|]. split; [reflexivity|]. intros q. cbn [a_foreign os]. unfold a_set, upd.
    destruct (Nat.eqb q p); [reflexivity|apply Hf].
  - (* the history forgets the port whoever held it: there is something to forget only if a foreign socket did *)
    destruct (os s p) eqn:E; cbn [fst snd] in *; (split; [reflexivity|]); (split; [exact HI'|]); (split; [exact Hr|]);
      intros q; cbn [a_foreign os]; unfold a_set, upd; destruct (Nat.eqb_spec q p) as [->|_]; rewrite ?E; try reflexivity; apply Hf.
  - split; [|exact HR]. rewrite <- Hr, <- Hb. destruct (os s p); reflexivity.
Qed.

Fixpoint c_trace (ports : list nat) (s : bstate) (acts : list action) : bstate * list obs :=
  match acts with
  | [] => (s, [])
  | a :: rest => let '(s1, o) := step false ports s a in let '(s2, os) := c_trace ports s1 rest in (s2, o :: os)
  end.

Lemma c_trace_run ports acts : forall s, fst (c_trace ports s acts) = fold_left (fun s a => fst (step false ports s a)) acts s.
Proof.
  induction acts as [|a rest IH]; intros s; [reflexivity|]. cbn [c_trace fold_left].
  destruct (step false ports s a) as [s1 o]. specialize (IH s1). destruct (c_trace ports s1 rest). exact IH.
Qed.

Lemma trace_refines ports : NoDup ports -> ports <> [] -> forall acts s a, R ports s a ->
  snd (c_trace ports s acts) = snd (a_trace ports a acts) /\ R ports (fst (c_trace ports s acts)) (fst (a_trace ports a acts)).
Proof.
  intros Hnd Hne. induction acts as [|act rest IH]; intros s a HR; [split; [reflexivity|exact HR]|].
  cbn [c_trace a_trace]. destruct (step_refines ports s a act Hnd Hne HR) as [Ho HR1].
  destruct (step false ports s act) as [s1 o]. destruct (a_step ports a act) as [a1 o'].
  specialize (IH s1 a1 HR1). destruct (c_trace ports s1 rest) as [s2 os2]. destruct (a_trace ports a1 rest) as [a2 os2']. cbn [fst snd] in *.
  destruct IH as [E HR2]. split; [congruence|exact HR2].
Qed.

Lemma R_init ports : R ports init a_init.
Proof. split; [apply init_inv|split; reflexivity]. Qed.
