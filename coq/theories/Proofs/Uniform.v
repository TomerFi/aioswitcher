(* The frame rule of the exchange model: an operation started on a connection that already carried traffic appends to the
   frames written so far exactly the frames it would write on a fresh connection, consumes exactly one reply of the
   script per frame, and returns the same result.  Proved for the primitives, preserved by bind, hence for every operation. *)
Require Import AS.Base.Prelude AS.Base.Exchange AS.Model.Messages AS.Model.ScheduleParser AS.Model.Api AS.Model.Ops
  AS.Proofs.Wire.
Open Scope N_scope.

Definition mk (F R : list bytes) : io := {| frames := F; replies := R |}.

Definition uniform {A} (m : M A) : Prop :=
  forall R, exists fs r, forall F, m (mk F R) = (mk (F ++ fs) (skipn (length fs) R), r).

Lemma uniform_ret {A} (a : A) : uniform (ret a).
Proof. intros R. exists [], (Ok a). intros F. unfold ret, mk. rewrite app_nil_r. reflexivity. Qed.
Lemma uniform_raise {A} e : uniform (@raise A e).
Proof. intros R. exists [], (Exc e). intros F. unfold raise, mk. rewrite app_nil_r. reflexivity. Qed.
Lemma uniform_lift {A} (r : result A) : uniform (lift r).
Proof. intros R. exists [], r. intros F. unfold lift, mk. rewrite app_nil_r. reflexivity. Qed.
Lemma uniform_ext {A} (m m' : M A) : (forall st, m st = m' st) -> uniform m' -> uniform m.
Proof. intros E H R. destruct (H R) as [fs [r Hr]]. exists fs, r. intros F. rewrite E. apply Hr. Qed.
Lemma uniform_emit {A} w (k : bytes -> A) : uniform (emit w k).
Proof.
  intros R. destruct w as [bs|e].
  - exists [bs], (Ok (k (hd [] R))). intros F. destruct R; reflexivity.
  - exists [], (Exc e). intros F. unfold emit, mk. rewrite app_nil_r. reflexivity.
Qed.
Lemma uniform_send signed : uniform (send signed).
Proof. exact (uniform_ext _ _ (send_eq signed) (uniform_emit _ _)). Qed.
Lemma uniform_bind {A B} (m : M A) (f : A -> M B) : uniform m -> (forall a, uniform (f a)) -> uniform (bindM m f).
Proof.
  intros Hm Hf R. destruct (Hm R) as [fs1 [r1 H1]]. destruct r1 as [a|e].
  - destruct (Hf a (skipn (length fs1) R)) as [fs2 [r2 H2]]. exists (fs1 ++ fs2), r2. intros F.
    unfold bindM. rewrite H1. rewrite H2.
    rewrite app_assoc, app_length, skipn_skipn'. reflexivity.
  - exists fs1, (Exc e). intros F. unfold bindM. rewrite H1. reflexivity.
Qed.
Lemma uniform_mapM {A B} (g : A -> B) (m : M A) : uniform m -> uniform (mapM g m).
Proof. intros H. unfold mapM. apply uniform_bind; [exact H|intros a; apply uniform_ret]. Qed.

Lemma uniform_login c t2 now : uniform (login c t2 now).
Proof.
  apply (uniform_ext _ (fun st => match timestamp_hex now with Ok ts => emit _ (logged_in ts) st | Exc e => raise e st end) (login_eq c t2 now)).
  destruct (timestamp_hex now); [apply uniform_emit|apply uniform_raise].
Qed.
Lemma uniform_send_template_gen lg t args fl : uniform (send_template_gen lg t args fl).
Proof. exact (uniform_ext _ _ (send_template_gen_eq lg t args fl) (uniform_emit _ _)). Qed.
Lemma uniform_type1_op lg c now t extra : uniform (type1_op lg c now t extra).
Proof. unfold type1_op. apply uniform_bind; [apply uniform_login|intros l]. apply uniform_bind; [apply uniform_lift|intros a]. apply uniform_send_template_gen. Qed.
Lemma uniform_type2_op lg c now t extra fl : uniform (type2_op lg c now t extra fl).
Proof. unfold type2_op. apply uniform_bind; [apply uniform_login|intros l]. destruct (successful _); [apply uniform_send_template_gen|apply uniform_raise]. Qed.
Lemma uniform_wrap_parse {A} (r : result A) : uniform (wrap_parse r).
Proof. unfold wrap_parse. destruct r; [apply uniform_ret|destruct (_ || _)%bool; apply uniform_raise]. Qed.
Lemma uniform_query {A} c now type2 (k : bytes -> M A) : (forall s, uniform (k s)) -> uniform (query c now type2 k).
Proof.
  intros Hk. apply uniform_bind; [apply uniform_login|intros l]. destruct (successful _); [|apply uniform_raise].
  apply uniform_bind; [apply uniform_send_template_gen|exact Hk].
Qed.
Lemma uniform_get_state_full c now : uniform (get_state_full c now).
Proof.
  apply (uniform_query c now false). intros s.
  destruct (parse_state_reply s); [destruct (successful s); [apply uniform_ret|apply uniform_raise]|destruct (_ || _)%bool; apply uniform_raise].
Qed.
Lemma uniform_get_breeze_state c now : uniform (get_breeze_state c now).
Proof. apply (uniform_query c now true). intros s. apply uniform_bind; [apply uniform_wrap_parse|intros r; apply uniform_ret]. Qed.
Lemma uniform_get_shutter_state c now : uniform (get_shutter_state c now).
Proof. apply (uniform_query c now true). intros s. apply uniform_bind; [apply uniform_wrap_parse|intros r; apply uniform_ret]. Qed.
Lemma uniform_get_schedules_full c now : uniform (get_schedules_full c now).
Proof.
  unfold get_schedules_full, get_schedules_op. apply uniform_bind; [apply uniform_type1_op|intros resp].
  destruct (get_schedules _ _ _ _ _); [apply uniform_ret|apply uniform_raise].
Qed.
Lemma uniform_control_breeze lg c now r state mode target fan swing update :
  uniform (control_breeze_device lg c now r state mode target fan swing update).
Proof.
  unfold control_breeze_device. apply uniform_bind; [apply uniform_login|intros l].
  destruct (negb (successful (lr_response l))); [apply uniform_raise|].
  apply uniform_bind; [|intros cmd; apply uniform_bind; [|intros fin; destruct fin; [apply uniform_ret|apply uniform_raise]]].
  - destruct (_ || _ || _ || _ || _)%bool; [|apply uniform_ret].
    apply uniform_bind; [apply uniform_send_template_gen|intros sresp].
    destruct (parse_thermostat_reply sresp) as [cur|e]; [|destruct (_ || _)%bool; apply uniform_raise].
    destruct (negb (successful sresp)); [apply uniform_raise|].
    apply uniform_bind; [|intros resp; destruct (successful resp); [apply uniform_ret|apply uniform_raise]].
    destruct update; [apply uniform_send_template_gen|].
    apply uniform_bind; [apply uniform_lift|intros cl; apply uniform_send_template_gen].
  - destruct (_ && _ && _)%bool; [|apply uniform_ret].
    apply uniform_bind; [apply uniform_lift|intros cl]. apply uniform_bind; [apply uniform_send_template_gen|intros resp; apply uniform_ret].
Qed.

Theorem uniform_run_op c now o : uniform (run_op c now o).
Proof.
  destruct o; cbn [run_op]; apply uniform_mapM.
  - unfold control_device_op. apply uniform_type1_op.
  - unfold set_auto_shutdown_op. apply uniform_type1_op.
  - unfold set_device_name_op. apply uniform_type1_op.
  - apply uniform_get_schedules_full.
  - unfold delete_schedule_op. apply uniform_type1_op.
  - unfold create_schedule_op. apply uniform_type1_op.
  - unfold stop_op. apply uniform_type2_op.
  - unfold set_position_op. apply uniform_type2_op.
  - apply uniform_get_shutter_state.
  - apply uniform_get_breeze_state.
  - apply uniform_get_state_full.
  - apply uniform_control_breeze.
Qed.

Require Import AS.Model.Session AS.Spec.Session.

Lemma run_of_uniform {A} (m : M A) R fs r :
  (forall F, m (mk F R) = (mk (F ++ fs) (skipn (length fs) R), r)) -> Exchange.run m R = (fs, r).
Proof. intros H. unfold Exchange.run. rewrite H. reflexivity. Qed.

Lemma seq_ops_alone c ops : forall F R,
  seq_ops c ops (mk F R) =
  (mk (F ++ concat (map fst (alone c ops R))) (skipn (length (concat (map fst (alone c ops R)))) R),
   map snd (alone c ops R)).
Proof.
  induction ops as [|[now o] rest IH]; intros F R.
  - cbn. unfold mk. rewrite app_nil_r. reflexivity.
  - cbn [seq_ops alone map concat fst snd].
    destruct (uniform_run_op c now o R) as [fs [r H]].
    rewrite (run_of_uniform _ _ _ _ H). cbn [fst snd]. rewrite H, IH.
    rewrite app_assoc, app_length, skipn_skipn'. reflexivity.
Qed.

Lemma wupd_same w k st : wupd w k st k = st.
Proof. unfold wupd. rewrite Nat.eqb_refl. reflexivity. Qed.
Lemma wupd_other w k j st : j <> k -> wupd w k st j = w j.
Proof. intros H. unfold wupd. destruct (Nat.eqb_spec j k); [contradiction|reflexivity]. Qed.
