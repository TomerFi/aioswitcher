Require Import AS.Base.Prelude AS.Base.Hex AS.Model.DeviceTools AS.Proofs.HexSlices.
Open Scope N_scope.

Lemma zeros_unhex : unhexlify (s2l "00000000") = Some [0; 0; 0; 0].
Proof. reflexivity. Qed.

(* repaired code: the header carries LE16 of the final length (message bytes + 4 signature bytes) *)
Lemma set_message_length_eq m b : unhexlify m = Some b -> N.of_nat (length b + 4) < 65536 ->
  set_message_length false m = Ok (s2l "fef0" ++ hexlify (le16 (N.of_nat (length b + 4))) ++ skipn 8 m).
Proof.
  intros Hm Hn. unfold set_message_length.
  rewrite (unhexlify_app m b _ _ Hm zeros_unhex). cbn [of_option bind negb andb].
  rewrite app_length. cbn [length]. apply N.leb_gt in Hn. rewrite Hn. reflexivity.
Qed.

(* a call that returns was given hex text of even length; the repaired code also checked that the frame fits 16 bits *)
Lemma set_message_length_inv lg m out : set_message_length lg m = Ok out ->
  exists b, unhexlify m = Some b /\ (lg = false -> N.of_nat (length b + 4) < 65536).
Proof.
  unfold set_message_length. destruct (unhexlify (m ++ s2l "00000000")) as [bin|] eqn:E; [|discriminate]. cbn [of_option bind].
  pose proof (unhexlify_length _ _ E) as Hl. rewrite app_length in Hl. change (length (s2l "00000000")) with 8%nat in Hl.
  assert (He : Nat.even (length m) = true) by (apply Nat.even_spec; exists (length bin - 4)%nat; lia).
  destruct (unhexlify_app_inv m _ bin He E) as (b & z & Hb & Hz & ->).
  rewrite zeros_unhex in Hz. injection Hz as <-. intros H. exists b. split; [exact Hb|]. intros ->. rewrite app_length in H. cbn [negb andb length] in H.
  destruct (N.leb_spec 65536 (N.of_nat (length b + 4))); [discriminate|assumption].
Qed.

Theorem set_message_length_ok m b : unhexlify m = Some b -> (8 <= length m)%nat ->
  N.of_nat (length b + 4) < 65536 ->
  set_message_length false m = Ok (s2l "fef0" ++ hexlify (le16 (N.of_nat (length b + 4))) ++ skipn 8 m) /\
  length (s2l "fef0" ++ hexlify (le16 (N.of_nat (length b + 4))) ++ skipn 8 m) = length m.
Proof.
  intros Hm Hl Hn. split; [exact (set_message_length_eq m b Hm Hn)|].
  rewrite !app_length, hexlify_length, skipn_length.
  change (length (s2l "fef0")) with 4%nat. change (length (le16 (N.of_nat (length b + 4)))) with 2%nat. lia.
Qed.

(* the code before the repair: a 256-byte message (260 with signature) gets "1040", not "0401" *)
Theorem set_message_length_legacy_refuted : exists m b,
  unhexlify m = Some b /\ length b = 256%nat /\
  exists out, set_message_length true m = Ok out /\ pyslice 4 8 out <> hexlify (le16 260).
Proof.
  exists (concat (repeat (s2l "00") 256)), (repeat 0 256). split; [vm_compute; reflexivity|].
  split; [reflexivity|]. exists (s2l "fef01040" ++ skipn 8 (concat (repeat (s2l "00") 256))).
  split; vm_compute; [reflexivity|discriminate].
Qed.

Theorem breeze_command_length_ok c : N.of_nat (length c / 2) < 65536 ->
  breeze_command_length false c = Ok (hexlify (le16 (N.of_nat (length c / 2)))).
Proof.
  intros H. unfold breeze_command_length.
  replace (65536 <=? N.of_nat (length c / 2)) with false by (symmetry; apply N.leb_gt; exact H). reflexivity.
Qed.
Theorem breeze_command_length_legacy_refuted : exists c,
  breeze_command_length true c <> Ok (hexlify (le16 (N.of_nat (length c / 2)))).
Proof. exists (s2l "00000000507c4f46"). vm_compute. discriminate. Qed.
