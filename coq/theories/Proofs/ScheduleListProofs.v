(* C10 at list level: what Props/C10.v's theorems about the list parser rest on - the first record of a slot id wins
   (add_first), what a fold of add_first preserves, and that a whole record always parses *)
Require Import AS.Base.Prelude AS.Base.Hex AS.Base.Dec AS.Model.ScheduleTools AS.Model.ScheduleParser
  AS.Spec.Encoders AS.Spec.NextRun AS.Proofs.ScheduleParserProofs AS.Proofs.ClockProofs AS.Proofs.ClockStrings AS.Proofs.NextRunText.
Open Scope N_scope.

Definition add_first (l : list schedule) (s : schedule) : list schedule :=
  if existsb (fun s' => if bytes_eq_dec (sc_id s') (sc_id s) then true else false) l then l else l ++ [s].
Definition parse_all (lu ln : bool) (z : zone) (now : Z) (recs : list bytes) : result (list schedule) :=
  fold_left (fun acc r => do l <- acc ;; do s <- parse_schedule lu ln z now (hexlify r) ;; Ok (add_first l s)) recs (Ok []).

(* when every record parses, the result is the first-per-id selection of the parsed records, in arrival order *)
Fixpoint first_per_id (seen : list schedule) (l : list schedule) : list schedule :=
  match l with
  | [] => seen
  | s :: r => first_per_id (add_first seen s) r
  end.

Definition same_id (a b : schedule) : bool := if bytes_eq_dec (sc_id a) (sc_id b) then true else false.
Lemma add_first_ids seen s : NoDup (map sc_id seen) -> NoDup (map sc_id (add_first seen s)).
Proof.
  intros Hn. unfold add_first. destruct (existsb _ seen) eqn:E; [exact Hn|].
  rewrite map_app. apply NoDup_snoc; [exact Hn|].
  intros Hin. apply in_map_iff in Hin. destruct Hin as [x [Hx Hin]].
  apply not_true_iff_false in E. apply E, existsb_exists. exists x. split; [exact Hin|].
  destruct (bytes_eq_dec (sc_id x) (sc_id s)); [reflexivity|contradiction].
Qed.

(* what add_first preserves holds of every list the parser returns *)
Lemma parse_all_inv (P : list schedule -> Prop) lu ln z now : P [] -> (forall l s, P l -> P (add_first l s)) ->
  forall recs l, parse_all lu ln z now recs = Ok l -> P l.
Proof.
  intros H0 Hs. induction recs as [|r recs IH] using rev_ind; intros l H.
  - injection H as <-. exact H0.
  - unfold parse_all in *. rewrite fold_left_app in H. cbn [fold_left] in H.
    destruct (fold_left _ recs (Ok [])) as [l0|]; cbn [bind] in H; [|discriminate].
    destruct (parse_schedule lu ln z now (hexlify r)) as [s|]; cbn [bind] in H; [|discriminate].
    injection H as <-. apply Hs, IH. reflexivity.
Qed.

Lemma bit_summary_days_ok mask ds : bit_summary_to_days mask = Ok ds -> NoDup ds /\ (forall d, In d ds -> (d < n_days)%nat).
Proof.
  unfold bit_summary_to_days. destruct ((1 <? mask) && (mask <? 255)); [|discriminate]. intros H.
  assert (E : ds = filter (fun d => negb (N.land (day_hex_rep d) mask =? 0)) all_days) by congruence. rewrite E. split.
  - apply NoDup_filter. apply seq_NoDup.
  - intros d Hd. apply filter_In in Hd. destruct Hd as [Hd _]. apply in_seq in Hd. lia.
Qed.

Lemma text_of_spec w f l start : exists t, text_of (next_run_spec w f l) start = Ok t.
Proof. unfold next_run_spec. destruct l; [eexists; reflexivity|]. destruct (min_list _) as [|[|k]]; eexists; reflexivity. Qed.

Theorem record_parses z now id en mask st s e t0 t1 t2 t3 ds :
  id < 256 -> mask < 256 -> s < 4294967296 -> e < 4294967296 ->
  (mask = 0 /\ ds = [] \/ mask <> 0 /\ bit_summary_to_days mask = Ok ds) ->
  exists dur disp, parse_schedule false false z now (hexlify (record id en mask st s e t0 t1 t2 t3)) =
    Ok {| sc_id := str_N id; sc_recurring := negb (mask =? 0); sc_days := ds; sc_start := fmt_hm z s; sc_end := fmt_hm z e;
          sc_duration := dur; sc_display := disp |}.
Proof.
  intros Hid Hmask Hs He Hds.
  destruct (parse_record false false z now id en mask st s e t0 t1 t2 t3 ds Hid Hmask Hs He Hds) as [dur [disp [Hp _]]].
  destruct (fmt_hm_clock z s) as [ks Cs]. destruct (fmt_hm_clock z e) as [ke Ce].
  rewrite Hp, (calc_duration_clock _ _ ks ke Cs Ce).
  assert (Hd : NoDup ds /\ (forall d, In d ds -> (d < n_days)%nat)).
  { destruct Hds as [[_ ->]|[_ Hb]]; [split; [constructor|intros d []]|exact (bit_summary_days_ok _ _ Hb)]. }
  rewrite (next_run_text_clock z now _ ks ds Cs (proj1 Hd) (proj2 Hd)).
  destruct (text_of_spec (weekday_of z now) (60 * fst (hm_of z now) + snd (hm_of z now) <? ks) ds (fmt_hm z s)) as [t ->].
  eexists _, _. reflexivity.
Qed.
Print Assumptions record_parses.
