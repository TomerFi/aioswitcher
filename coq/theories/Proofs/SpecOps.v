(* C02 / C03 over the exchange model: the exact frames of an operation are the Spec's login frame followed by the
   Spec's command frame for the caller's arguments; rejected arguments leave the login frame alone *)
Require Import AS.Base.Prelude AS.Base.Hex AS.Base.Template AS.Base.Exchange AS.Spec.FrameLayout AS.Spec.FrameSpec
  AS.Model.Api AS.Proofs.Wire AS.Proofs.LayoutMatch AS.Proofs.FrameAll AS.Proofs.OpsFrames.
Open Scope N_scope.

Definition cfg_of (idb : bytes) (keyb : N) : cfg := {| device_id := hexlify idb; device_key := hexlify [keyb] |}.
Lemma cfg_of_wf idb keyb : length idb = 3%nat -> Forall (fun b => b < 256) idb -> keyb < 256 -> wf_cfg (cfg_of idb keyb).
Proof.
  intros L H K. constructor; cbn [cfg_of device_id device_key].
  - apply hexlify_hexs, H.
  - rewrite hexlify_length, L. reflexivity.
  - apply hexlify_hexs. constructor; [exact K|constructor].
  - reflexivity.
Qed.

Lemma reply_successful (r0 : bytes) {n} : (S n <= length r0)%nat -> successful r0 = true.
Proof. intros H. apply successful_iff. intros ->. inversion H. Qed.

Section Exact.
Variables (idb : bytes) (keyb : N) (now : N) (r0 : bytes) (rest : list bytes).
Hypothesis Lid : length idb = 3%nat.
Hypothesis Hid : Forall (fun b => b < 256) idb.
Hypothesis Hkey : keyb < 256.
Hypothesis Hnow : now < 4294967296.
Hypothesis Hr0 : Forall (fun b => b < 256) r0.
Hypothesis Lr0 : (12 <= length r0)%nat.
Let c := cfg_of idb keyb.
Let h := hdr_args (pyslice 8 12 r0) now idb.

Lemma login_exact type2 : exists LF, spec_login type2 idb [keyb] now = Frame LF /\
  forall st, login c type2 now st = (push LF st, Ok (logged_in (hexlify (le32 now)) (hd [] (replies st)))).
Proof.
  destruct (template_site false (login_template type2) [8; if type2 then 6 else 2]%nat [hexlify (le32 now); credential c type2] (I_login type2))
    as [b [Hw [_ Hs]]].
  - constructor; [apply le32_hex|]. constructor; [destruct type2; split; apply (cfg_of_wf idb keyb Lid Hid Hkey)|constructor].
  - exists (seal b). split; [destruct type2; [exact (Hs L_login2 M_login2)|exact (Hs L_login1 M_login1)]|]. intros st.
    cbn [map] in Hw. rewrite login_eq, (timestamp_hex_ok now Hnow), Hw. reflexivity.
Qed.

(* a command frame after the login reply r0: one frame, the Spec's for the header arguments it names - session bytes 8-11
   of the reply, LE32 of the clock reading, the device id *)
Lemma command_exact (fl : bool) T L rs ws : matches T L = true -> site_okb fl T ([8; 8; 6]%nat ++ ws) = true ->
  Forall2 hexw ws rs ->
  exists CF, frame_of L (h ++ map AStr rs) = Frame CF /\ forall st,
    send_template_gen false T ([AStr (pyslice 16 24 (hexlify r0)); AStr (hexlify (le32 now)); AStr (hexlify idb)] ++ map AStr rs) fl st
    = (push CF st, Ok (hd [] (replies st))).
Proof.
  intros Hm Hk Hx. rewrite session_is_bytes.
  destruct (template_site fl T ([8; 8; 6]%nat ++ ws) ([hexlify (pyslice 8 12 r0); hexlify (le32 now); hexlify idb] ++ rs) Hk)
    as [b [Hwr [_ Hs]]].
  - apply Forall2_app; [|exact Hx]. constructor; [apply (hexlify_hexw _ 4); [apply Forall_pyslice, Hr0|apply pyslice_length, Lr0]|].
    constructor; [apply le32_hex|]. constructor; [exact (hexlify_hexw idb 3 Hid Lid)|constructor].
  - exists (seal b). rewrite map_app in Hwr, Hs. split; [exact (Hs L Hm)|]. intros st.
    cbn [map] in Hwr. rewrite send_template_gen_eq, Hwr. reflexivity.
Qed.

(* what an operation did: the frames written and whether it returned the device's answer or raised *)
Definition outcome_is (x : list bytes * result bytes) (v : verdict) : Prop :=
  exists LF, (exists t2, spec_login t2 idb [keyb] now = Frame LF) /\
    match v with
    | Frame CF => x = ([LF; CF], Ok (hd [] rest))
    | MustRaise => exists e, x = ([LF], Exc e)
    | Unspecified => True
    end.

Lemma outcome_unspecified x : outcome_is x Unspecified.
Proof.
  destruct (login_exact false) as [LF [Hs _]].
  exists LF. split; [exists false; exact Hs|exact I].
Qed.

(* the two shapes of a command operation, for arguments the encoders accept and for arguments they reject; the verdict
   comes with an equation, so a use applies the lemma to the Spec's verdict and is left with the arithmetic that relates
   the encoder's guard to it *)
Lemma type1_outcome T L extra ws v : matches T L = true -> site_okb false T ([8; 8; 6]%nat ++ ws) = true -> enc_ok extra ws ->
  v = match extra with Ok args => frame_of L (h ++ args) | Exc _ => MustRaise end ->
  outcome_is (Exchange.run (type1_op false c now T extra) (r0 :: rest)) v.
Proof.
  intros Hm HI He ->. unfold Exchange.run, type1_op, bindM, c.
  destruct (login_exact false) as [LF [Hs ->]].
  exists LF. split; [exists false; exact Hs|]. unfold lift at 1. destruct extra as [args|e]; [|eexists; reflexivity].
  destruct (He args eq_refl) as [rs [-> Hx]].
  destruct (command_exact false T L rs ws Hm HI Hx) as [CF [-> ->]]. reflexivity.
Qed.

Lemma type2_outcome T L rs ws v : matches T L = true -> site_okb true T ([8; 8; 6]%nat ++ ws) = true ->
  Forall2 hexw ws rs -> v = frame_of L (h ++ map AStr rs) ->
  outcome_is (Exchange.run (type2_op false c now T (map AStr rs) true) (r0 :: rest)) v.
Proof.
  intros Hm HI Hx ->. unfold Exchange.run, type2_op, bindM, c.
  destruct (login_exact true) as [LF [Hs ->]].
  exists LF. split; [exists true; exact Hs|]. cbn [logged_in lr_session lr_timestamp lr_response replies hd cfg_of device_id].
  rewrite (reply_successful r0 Lr0).
  destruct (command_exact true T L rs ws Hm HI Hx) as [CF [-> ->]]. reflexivity.
Qed.
End Exact.
Arguments login_exact {idb keyb now}.
Arguments command_exact {idb} now {r0} _ _ _ _ fl {T L rs ws}.
Arguments outcome_unspecified {idb keyb now rest}.
Arguments type1_outcome {idb keyb now r0 rest} _ _ _ _ _ _ {T L extra ws v}.
Arguments type2_outcome {idb keyb now r0 rest} _ _ _ _ _ _ {T L rs ws v}.
