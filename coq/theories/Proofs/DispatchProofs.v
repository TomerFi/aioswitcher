Require Import AS.Base.Prelude AS.Model.Bridge.

Definition expected (lm lt : bool) (events : list (nat * bytes)) : list (nat * device) :=
  flat_map (fun '(p, d) => match delivered lm lt d with Some x => [(p, x)] | None => [] end) events.

Lemma loop_calls lm lt raises events : forall s,
  calls (fold_left (loop_step lm lt raises) events s) = calls s ++ expected lm lt events.
Proof.
  induction events as [|[p d] events IH]; intros s; [cbn; rewrite app_nil_r; reflexivity|].
  cbn [fold_left expected flat_map]. rewrite IH. unfold loop_step, delivered.
  destruct (parse_datagram lm lt d); cbn [calls]; rewrite <- ?app_assoc; reflexivity.
Qed.

Definition on_port {A} (p : nat) (l : list (nat * A)) : list A :=
  flat_map (fun '(q, x) => if Nat.eqb q p then [x] else []) l.
