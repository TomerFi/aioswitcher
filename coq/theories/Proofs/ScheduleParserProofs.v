Require Import AS.Base.Prelude AS.Base.Hex AS.Base.Dec AS.Model.ScheduleTools AS.Model.ScheduleParser AS.Spec.Encoders
  AS.Proofs.ClockProofs.
Open Scope N_scope.

Lemma record_length id en mask st s e t0 t1 t2 t3 : length (record id en mask st s e t0 t1 t2 t3) = 16%nat.
Proof. reflexivity. Qed.

Lemma chunks_app fuel n (x s : bytes) : length x = S n -> chunks (S fuel) (S n) (x ++ s) = x :: chunks fuel (S n) s.
Proof.
  intros Hx. destruct x as [|c x]; [discriminate|]. injection Hx as Hx. cbn [chunks app firstn skipn].
  rewrite firstn_app, skipn_app, Hx, Nat.sub_diag, firstn_all2, skipn_all2 by lia. rewrite app_nil_r. reflexivity.
Qed.

Lemma chunks_records : forall (recs : list bytes) fuel, (forall r, In r recs -> length r = 16%nat) ->
  (length recs <= fuel)%nat ->
  chunks fuel 32 (hexlify (concat recs)) = map hexlify recs.
Proof.
  induction recs as [|r recs IH]; intros [|fuel] Hl Hf; try reflexivity; [cbn in Hf; lia|].
  cbn [concat map]. rewrite hexlify_app, (chunks_app fuel 31), IH; [reflexivity|intros r' Hr'; apply Hl; right; exact Hr'|cbn in Hf; lia|].
  rewrite hexlify_length, (Hl r (or_introl eq_refl)). reflexivity.
Qed.

(* the records of a get-schedules reply lie between a 45-byte header and the 4-byte signature *)
Lemma schedule_region (hdr body tail : bytes) : length hdr = 45%nat -> length tail = 4%nat ->
  let hex := hexlify (hdr ++ body ++ tail) in
  pyslice 90 (length hex - 8) hex = hexlify body.
Proof.
  intros Hh Ht hex. unfold hex. rewrite hexlify_length, !app_length, Hh, Ht.
  replace (2 * (45 + (length body + 4)) - 8)%nat with (2 * (45 + length body))%nat by lia.
  change 90%nat with (2 * 45)%nat. rewrite hexlify_slice, <- Hh. f_equal. apply pyslice_app_mid.
Qed.

Lemma recurring_flag mask : mask < 256 -> (if bytes_eq_dec (hexlify [mask]) (s2l "00") then false else true) = negb (mask =? 0).
Proof.
  intros Hm. destruct (N.eqb_spec mask 0) as [->|Hne]; [reflexivity|].
  destruct (bytes_eq_dec (hexlify [mask]) (s2l "00")) as [E|E]; [|reflexivity].
  apply (hexlify_inj [mask] [0]) in E; [congruence| |]; repeat constructor. exact Hm.
Qed.
Lemma record_days mask ds : mask < 256 -> (mask = 0 /\ ds = [] \/ mask <> 0 /\ bit_summary_to_days mask = Ok ds) ->
  (if negb (mask =? 0) then do m <- of_option ValueError (int16 (hexlify [mask])) ;; bit_summary_to_days m else Ok []) = Ok ds.
Proof.
  intros Hm [[-> ->]|[Hne Hb]]; [reflexivity|]. rewrite (proj2 (N.eqb_neq mask 0) Hne), (int16_byte mask Hm). exact Hb.
Qed.

Theorem parse_record lu ln z now id en mask st s e t0 t1 t2 t3 ds :
  id < 256 -> mask < 256 -> s < 4294967296 -> e < 4294967296 ->
  (mask = 0 /\ ds = [] \/ mask <> 0 /\ bit_summary_to_days mask = Ok ds) ->
  exists dur disp,
    parse_schedule lu ln z now (hexlify (record id en mask st s e t0 t1 t2 t3)) =
    match calc_duration (fmt_hm z s) (fmt_hm z e), pretty_next_run lu ln z now (fmt_hm z s) ds with
    | Ok d, Ok p => Ok {| sc_id := str_N id; sc_recurring := negb (mask =? 0); sc_days := ds;
                          sc_start := fmt_hm z s; sc_end := fmt_hm z e; sc_duration := d; sc_display := p |}
    | Exc x, _ => Exc x
    | _, Exc x => Exc x
    end /\ dur = calc_duration (fmt_hm z s) (fmt_hm z e) /\ disp = pretty_next_run lu ln z now (fmt_hm z s) ds.
Proof.
  intros Hid Hmask Hs He Hds. eexists _, _. split; [|split; reflexivity].
  unfold parse_schedule.
  change (pyslice 0 2 (hexlify (record id en mask st s e t0 t1 t2 t3))) with (hexlify [id]).
  change (pyslice 4 6 (hexlify (record id en mask st s e t0 t1 t2 t3))) with (hexlify [mask]).
  change (pyslice 8 16 (hexlify (record id en mask st s e t0 t1 t2 t3))) with (hexlify (le32 s)).
  change (pyslice 16 24 (hexlify (record id en mask st s e t0 t1 t2 t3))) with (hexlify (le32 e)).
  rewrite (int16_byte id Hid), (recurring_flag mask Hmask), (record_days mask ds Hmask Hds), !decode_le32 by assumption.
  cbn [of_option bind].
  destruct (calc_duration (fmt_hm z s) (fmt_hm z e)); cbn [bind]; [|reflexivity].
  destruct (pretty_next_run lu ln z now (fmt_hm z s) ds); reflexivity.
Qed.
Print Assumptions parse_record.
