(* Every call site of the API model is send_template_gen or login.  Each is split here into a pure part, the bytes it would
   put on the wire ([wire]), and its effect on the connection ([emit]): one frame appended and the next reply of the script
   handed on, or nothing at all.  What an operation writes is then read off by rewriting with these equations. *)
Require Import AS.Base.Prelude AS.Base.Hex AS.Base.Template AS.Base.Exchange AS.Gen.Extracted AS.Spec.Sign
  AS.Model.DeviceTools AS.Model.Api AS.Proofs.SignProofs.
Open Scope N_scope.

Definition push (bs : bytes) (st : io) : io := {| frames := frames st ++ [bs]; replies := tl (replies st) |}.
Definition emit {A} (w : result bytes) (k : bytes -> A) : M A :=
  fun st => match w with Ok bs => (push bs st, Ok (k (hd [] (replies st)))) | Exc e => (st, Exc e) end.

Lemma send_eq signed st : send signed st = emit (of_option BinasciiError (unhexlify signed)) (fun r => r) st.
Proof. unfold send, emit, push. destruct (unhexlify signed); [|reflexivity]. destruct (replies st); reflexivity. Qed.

Definition wire_text (lg : bool) (p : bytes) (fix_len : bool) : result bytes :=
  do p' <- (if fix_len then set_message_length lg p else Ok p) ;;
  do signed <- sign_packet_with_crc_key p' ;;
  of_option BinasciiError (unhexlify signed).
Definition wire (lg : bool) (t : template) (args : list farg) (fix_len : bool) : result bytes :=
  do p <- format t args ;; wire_text lg p fix_len.

Lemma wire_format lg t args fl p : format t args = Ok p -> wire lg t args fl = wire_text lg p fl.
Proof. intros H. unfold wire. rewrite H. reflexivity. Qed.

Lemma send_template_gen_eq lg t args fl st : send_template_gen lg t args fl st = emit (wire lg t args fl) (fun r => r) st.
Proof.
  unfold send_template_gen, wire, wire_text, bindM, lift. destruct (format t args) as [p|]; [|reflexivity]. cbn [bind].
  destruct (if fl then _ else _) as [p'|]; [|reflexivity]. cbn [bind].
  destruct (sign_packet_with_crc_key p') as [signed|]; [|reflexivity]. apply send_eq.
Qed.

Definition login_template (type2 : bool) : template := if type2 then T_LOGIN2_PACKET_TYPE2 else T_LOGIN_PACKET_TYPE1.
Definition credential (c : cfg) (type2 : bool) : bytes := if type2 then device_id c else device_key c.
Definition logged_in (ts response : bytes) : login_result :=
  {| lr_timestamp := ts; lr_response := response; lr_session := pyslice 16 24 (hexlify response) |}.

Lemma login_eq c type2 now st : login c type2 now st =
  match timestamp_hex now with
  | Ok ts => emit (wire false (login_template type2) [AStr ts; AStr (credential c type2)] false) (logged_in ts) st
  | Exc e => (st, Exc e)
  end.
Proof.
  unfold login, wire, wire_text, bindM, lift, ret. destruct (timestamp_hex now) as [ts|]; [|reflexivity].
  replace (if type2 then format T_LOGIN2_PACKET_TYPE2 [AStr ts; AStr (device_id c)] else format T_LOGIN_PACKET_TYPE1 [AStr ts; AStr (device_key c)])
    with (format (login_template type2) [AStr ts; AStr (credential c type2)]) by (destruct type2; reflexivity).
  destruct (format _ _) as [p|]; [|reflexivity]. cbn [bind].
  destruct (sign_packet_with_crc_key p) as [signed|]; [|reflexivity]. cbn [bind]. rewrite send_eq.
  destruct (of_option _ _); reflexivity.
Qed.

(* The state queries have one shape: login, then (after a non-empty reply) the query frame, whose reply [k] interprets.
   get_state and get_state_full (type 1), get_breeze_state and get_shutter_state (type 2) are [query] at their [k], by unfolding. *)
Definition query {A} (c : cfg) (now : N) (type2 : bool) (k : bytes -> M A) : M A :=
  perform l <- login c type2 now ;;
  if successful (lr_response l) then
    perform state_resp <- send_template (if type2 then T_GET_STATE_PACKET2_TYPE2 else T_GET_STATE_PACKET_TYPE1)
      [AStr (lr_session l); AStr (lr_timestamp l); AStr (device_id c)] false ;;
    k state_resp
  else raise RuntimeError.

(* the session id, as bytes 8-11 of the login reply *)
Lemma session_is_bytes r0 : pyslice 16 24 (hexlify r0) = hexlify (pyslice 8 12 r0).
Proof. exact (hexlify_slice 8 12 r0). Qed.

Lemma successful_iff (b : bytes) : successful b = true <-> b <> [].
Proof. destruct b; cbn; split; congruence. Qed.

Lemma timestamp_hex_ok now : now < 4294967296 -> timestamp_hex now = Ok (hexlify (le32 now)).
Proof. intros H. unfold timestamp_hex. apply N.ltb_lt in H. rewrite H. reflexivity. Qed.

Lemma sig_bytes bs : Forall (fun b => b < 256) (sig bs).
Proof. unfold sig. apply Forall_app. split; apply le16_bytes. Qed.

Lemma signed_bytes p b : unhexlify p = Some b ->
  (do signed <- sign_packet_with_crc_key p ;; of_option BinasciiError (unhexlify signed)) = Ok (b ++ sig b).
Proof.
  intros H. rewrite (sign_spec p b H). cbn [bind].
  rewrite (unhexlify_app p b _ _ H (unhexlify_hexlify _ (sig_bytes b))). reflexivity.
Qed.
