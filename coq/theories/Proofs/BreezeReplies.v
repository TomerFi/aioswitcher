(* C16: thermostat control never reports success on an empty reply: a successful response means every reply that was read,
   one per frame written, was non-empty.  No premise on the configuration, the remote or the request. *)
Require Import AS.Base.Prelude AS.Base.Exchange AS.Gen.Extracted AS.Model.Messages AS.Model.Remotes AS.Model.Api
  AS.Proofs.Wire.
Open Scope N_scope.

(* a step that reads: it either raises, or writes one frame and returns the next reply of the script *)
Definition reads (st st' : io) (r : bytes) : Prop := exists f, st' = push f st /\ r = hd [] (replies st).

Lemma emit_reads {A} w (k : bytes -> A) st st' a : emit w k st = (st', Ok a) -> exists r, a = k r /\ reads st st' r.
Proof.
  destruct w as [bs|]; [|discriminate]. intros H. inversion H.
  exists (hd [] (replies st)). split; [reflexivity|exists bs; auto].
Qed.
Lemma send_template_reads lg t args fl st st' r : send_template_gen lg t args fl st = (st', Ok r) -> reads st st' r.
Proof. rewrite send_template_gen_eq. intros H. apply emit_reads in H. destruct H as [r' [-> H]]. exact H. Qed.
Lemma login_reads c t2 now st st' l : login c t2 now st = (st', Ok l) -> reads st st' (lr_response l).
Proof.
  rewrite login_eq. destruct (timestamp_hex now) as [ts|]; [|discriminate].
  intros H. apply emit_reads in H. destruct H as [r [-> H]]. exact H.
Qed.

(* the script consumed so far: the replies taken from its front, one per frame written, all of them non-empty *)
Definition progress (script : list bytes) (st : io) : Prop :=
  exists seen, script = seen ++ replies st /\ length seen = length (frames st) /\ Forall (fun x => x <> []) seen.

(* a further non-empty reply keeps the invariant; of the state reached it gives what the theorem says of the final one *)
Lemma progress_step script st st' r : progress script st -> reads st st' r -> r <> [] ->
  progress script st' /\
  (length (frames st') <= length script)%nat /\ Forall (fun x => x <> []) (firstn (length (frames st')) script) /\
  nth_error script (length (frames st') - 1) = Some r.
Proof.
  intros [seen [-> [L F]]] [f [-> ->]] Hne. unfold progress. cbn [push frames replies]. rewrite app_length, <- L.
  destruct (replies st) as [|x rest]; [contradiction|].
  assert (F' : Forall (fun x => x <> []) (seen ++ [x])) by (apply Forall_app; split; [exact F|constructor; [exact Hne|constructor]]).
  split; [exists (seen ++ [x]); rewrite <- app_assoc, app_length; auto|].
  split; [rewrite app_length; cbn [length]; lia|]. split; [rewrite firstn_app_2; exact F'|].
  rewrite Nat.add_sub, nth_error_app2, Nat.sub_diag by lia. reflexivity.
Qed.

Theorem breeze_success_means_every_reply lg c now r state mode target fan swing update script fs resp :
  Exchange.run (control_breeze_device lg c now r state mode target fan swing update) script = (fs, Ok resp) ->
  resp <> [] ->
  (length fs <= length script)%nat /\ Forall (fun x => x <> []) (firstn (length fs) script) /\
  nth_error script (length fs - 1) = Some resp.
Proof.
  unfold Exchange.run. set (st0 := {| frames := []; replies := script |}). intros H Hne.
  assert (P0 : progress script st0) by (exists []; repeat split; constructor).
  unfold control_breeze_device, bindM in H.
  destruct (login c true now st0) as [st1 [l|e]] eqn:El; [|discriminate].
  pose proof (login_reads _ _ _ _ _ _ El) as R1.
  destruct (successful (lr_response l)) eqn:S1; cbn [negb] in H; [|discriminate].
  destruct (progress_step script st0 st1 _ P0 R1 (proj1 (successful_iff _) S1)) as [P1 _].
  destruct (_ || _ || _ || _ || _)%bool.
  - destruct (send_template_gen lg T_GET_STATE_PACKET2_TYPE2 _ false st1) as [st2 [sr|e]] eqn:E2; [|discriminate].
    pose proof (send_template_reads _ _ _ _ _ _ _ E2) as R2.
    destruct (parse_thermostat_reply sr) as [cur|e]; [|destruct (_ || _)%bool; discriminate].
    destruct (successful sr) eqn:S2; cbn [negb] in H; [|discriminate].
    destruct (progress_step script st1 st2 _ P1 R2 (proj1 (successful_iff _) S2)) as [P2 _].
    match type of H with context [if update then ?A else ?B] => set (mainstep := if update then A else B) in H end.
    destruct (mainstep st2) as [st3 [r2|e]] eqn:E3; [|discriminate].
    assert (R3 : reads st2 st3 r2).
    { unfold mainstep in E3. destruct update; [apply (send_template_reads _ _ _ _ _ _ _ E3)|].
      unfold lift in E3. destruct (build_command lg r _ _ _ _ _ _) as [cl|]; [|discriminate]. apply (send_template_reads _ _ _ _ _ _ _ E3). }
    destruct (successful r2) eqn:S3; [|discriminate].
    destruct (progress_step script st2 st3 _ P2 R3 (proj1 (successful_iff _) S3)) as [P3 _].
    unfold ret at 1 in H.
    destruct (r_sep r && is_some swing && negb update)%bool.
    + unfold lift in H. destruct (build_swing_command lg r (or_else swing false)) as [cl|]; [|discriminate].
      destruct (send_template_gen lg T_BREEZE_COMMAND_PACKET _ true st3) as [st4 [r3|e]] eqn:E4; [|discriminate].
      pose proof (send_template_reads _ _ _ _ _ _ _ E4) as R4. unfold ret in H.
      injection H as <- <-. exact (proj2 (progress_step script st3 st4 _ P3 R4 Hne)).
    + injection H as <- <-. exact (proj2 (progress_step script st2 st3 _ P2 R3 Hne)).
  - unfold ret at 1 in H.
    destruct (r_sep r && is_some swing && negb update)%bool; [|discriminate].
    unfold lift in H. destruct (build_swing_command lg r (or_else swing false)) as [cl|]; [|discriminate].
    destruct (send_template_gen lg T_BREEZE_COMMAND_PACKET _ true st1) as [st4 [r3|e]] eqn:E4; [|discriminate].
    pose proof (send_template_reads _ _ _ _ _ _ _ E4) as R4.
    injection H as <- <-. exact (proj2 (progress_step script st1 st4 _ P1 R4 Hne)).
Qed.
Print Assumptions breeze_success_means_every_reply.
