(* C16: the exact frames of thermostat control = login, state query, then the Spec's main frame for the merged values
   (requested value, else the value the device just reported), plus the separate swing frame where it applies *)
Require Import AS.Base.Prelude AS.Base.Hex AS.Base.Template AS.Base.Exchange AS.Gen.Extracted AS.Spec.Frame
  AS.Spec.FrameLayout AS.Spec.FrameSpec AS.Model.Messages AS.Model.Api AS.Proofs.Wire AS.Proofs.FrameProofs
  AS.Proofs.LengthProofs AS.Proofs.FrameAll AS.Proofs.LayoutMatch AS.Proofs.OpsFrames AS.Proofs.SpecOps AS.Spec.Remote
  AS.Proofs.RemoteSpec.
Open Scope N_scope.

(* [lens] is there so that evenness and size are premises about rendered_length, which computes on the literal widths
   of a caller, and not about the text *)
Lemma header_site T L sess ts rest lens : matches T L = true -> header_okb T = true ->
  hexw 8 sess -> hexw 8 ts -> strs_hex rest ->
  let args := [AStr sess; AStr ts] ++ rest in
  holes_typed T args = true -> map arg_len args = lens ->
  Nat.even (rendered_length T lens) = true -> N.of_nat (rendered_length T lens / 2 + 4) < 65536 ->
  exists bs, frame_of L args = Frame bs /\
    forall st, send_template_gen false T args true st = (push bs st, Ok (hd [] (replies st))).
Proof.
  intros Hm Hk Hs Ht Hr args Hty <- He Hn. destruct (format_total T args Hty) as [p Hf].
  rewrite <- (format_length T args p Hf) in He, Hn.
  destruct (header_text T sess ts rest p Hk Hs Ht Hr Hf He Hn) as [b [Hb [Hw _]]].
  exists (seal b). split; [exact (frame_of_seal T L args p b Hm Hf Hb)|]. intros st.
  rewrite send_template_gen_eq, (wire_format _ _ _ _ _ Hf), Hw. reflexivity.
Qed.

Definition values_okb (t : list (string * string * string)) : bool :=
  forallb (fun '(n, v, _) => bytes_eqb (value_of n t) (s2l v)) t.
Lemma value_of_row t n v d : values_okb t = true -> In (n, v, d) t -> value_of n t = s2l v.
Proof.
  unfold values_okb. rewrite forallb_forall. intros H Hin. specialize (H _ Hin). apply bytes_eqb_eq, H.
Qed.
Lemma modes_values : values_okb thermostat_modes = true. Proof. vm_compute. reflexivity. Qed.
Lemma fans_values : values_okb fan_levels = true. Proof. vm_compute. reflexivity. Qed.

(* an IR command as sent: four zero bytes, then the text *)
Lemma cmd_length text : length (s2l "00000000" ++ hexlify text) = (2 * (4 + length text))%nat.
Proof. rewrite app_length, hexlify_length. change (length (s2l "00000000")) with 8%nat. lia. Qed.
Lemma cmd_half text : (length (s2l "00000000" ++ hexlify text) / 2 = 4 + length text)%nat.
Proof. rewrite cmd_length, Nat.mul_comm, Nat.div_mul; lia. Qed.

Section Sites.
Variables (idb sessb : bytes) (now : N).
Hypothesis Lid : length idb = 3%nat.   Hypothesis Hid : Forall (fun b => b < 256) idb.
Hypothesis Ls : length sessb = 4%nat.  Hypothesis Hs : Forall (fun b => b < 256) sessb.
Let sess := hexlify sessb.  Let ts := hexlify (le32 now).  Let idt := hexlify idb.
Let h := hdr_args sessb now idb.

Lemma hdr_facts : hexw 8 sess /\ hexw 8 ts /\ hexw 6 idt.
Proof. split; [exact (hexlify_hexw sessb 4 Hs Ls)|split; [apply le32_hex|exact (hexlify_hexw idb 3 Hid Lid)]]. Qed.

Lemma status_site (st : bool) mbyte tg fnib (sw : bool) (mv fv : string) :
  mbyte < 256 -> tg < 256 -> fnib < 16 -> hexlify [mbyte] = s2l mv -> [hexdigit fnib] = s2l fv ->
  exists bs, spec_breeze_status h st mbyte tg fnib sw = Frame bs /\ forall state,
    send_template_gen false T_BREEZE_UPDATE_STATUS_PACKET
      [AStr sess; AStr ts; AStr idt; AStr (s2l (if st then "01" else "00")); AStr (s2l mv); AInt tg; AStr (s2l fv);
       AStr (s2l (if sw then "1" else "0"))] true state = (push bs state, Ok (hd [] (replies state))).
Proof.
  intros Hm Ht Hf Emv Efv. destruct hdr_facts as [Ws [Wt Wi]].
  set (args := [AStr sess; AStr ts; AStr idt; AStr (s2l (if st then "01" else "00")); AStr (s2l mv); AInt tg; AStr (s2l fv);
                AStr (s2l (if sw then "1" else "0"))]).
  assert (Hspec : spec_breeze_status h st mbyte tg fnib sw = frame_of L_breeze_status args).
  { unfold spec_breeze_status, h, hdr_args, arg_of_bytes, nibble, args, sess, ts, idt. rewrite Emv, Efv.
    replace (hexlify [if st then 1 else 0]) with (s2l (if st then "01" else "00")) by (destruct st; reflexivity).
    replace [if sw then 49 else 48] with (s2l (if sw then "1" else "0")) by (destruct sw; reflexivity). reflexivity. }
  rewrite Hspec.
  apply (header_site T_BREEZE_UPDATE_STATUS_PACKET L_breeze_status sess ts _ [8; 8; 6; 2; 2; 2; 1; 1]%nat M_breeze_status H_breeze_status);
    try assumption; try reflexivity.
  - apply sh_str; [apply Wi|]. apply sh_str; [destruct st; apply lit_hexs; reflexivity|].
    apply sh_str; [rewrite <- Emv; apply hexlify_hexs; constructor; [exact Hm|constructor]|]. apply sh_int.
    apply sh_str; [rewrite <- Efv; constructor; [apply hexdigit_hex; exact Hf|constructor]|].
    apply sh_str; [destruct sw; apply lit_hexs; reflexivity|apply sh_nil].
  - cbn [app map arg_len]. rewrite (proj2 Ws), (proj2 Wt), (proj2 Wi), (fmt_02x_byte tg Ht), <- Emv, <- Efv. destruct st, sw; reflexivity.
Qed.

Lemma ir_length n : rendered_length T_BREEZE_COMMAND_PACKET [8; 8; 6; 4; n]%nat = (166 + n)%nat.
Proof. cbn [rendered_length T_BREEZE_COMMAND_PACKET nth]. rewrite Nat.add_0_r. reflexivity. Qed.

(* 65000 is a round bound: the frame is 91 bytes longer than the text and must fit 16 bits *)
Lemma ir_site text : Forall (fun b => b < 256) text -> N.of_nat (length text) < 65000 ->
  let cmd := s2l "00000000" ++ hexlify text in
  exists bs, spec_breeze_command h text = Frame bs /\ forall state,
    send_template_gen false T_BREEZE_COMMAND_PACKET
      [AStr sess; AStr ts; AStr idt; AStr (hexlify (le16 (N.of_nat (length cmd / 2)))); AStr cmd] true state
    = (push bs state, Ok (hd [] (replies state))).
Proof.
  intros Hb Hn cmd. destruct hdr_facts as [Ws [Wt Wi]].
  assert (Ecmd : cmd = hexlify ([0; 0; 0; 0] ++ text)) by (unfold cmd; rewrite hexlify_app; reflexivity).
  pose proof (cmd_length text) as Lcmd. pose proof (cmd_half text) as Lhalf. fold cmd in Lcmd, Lhalf.
  set (args := [AStr sess; AStr ts; AStr idt; AStr (hexlify (le16 (N.of_nat (length cmd / 2)))); AStr cmd]).
  assert (Hspec : spec_breeze_command h text = frame_of L_breeze_command args).
  { unfold spec_breeze_command. change (length ([0; 0; 0; 0] ++ text)) with (4 + length text)%nat.
    replace (65536 <=? N.of_nat (4 + length text)) with false by (symmetry; apply N.leb_gt; lia).
    unfold h, hdr_args, arg_of_bytes, args, sess, ts, idt. rewrite Lhalf, Ecmd. reflexivity. }
  rewrite Hspec.
  apply (header_site T_BREEZE_COMMAND_PACKET L_breeze_command sess ts _ [8; 8; 6; 4; 2 * (4 + length text)]%nat M_breeze_command H_breeze_command);
    try assumption; try reflexivity.
  - apply sh_str; [apply Wi|]. apply sh_str; [apply hexlify_hexs, le16_bytes|].
    apply sh_str; [rewrite Ecmd; apply hexlify_hexs; apply Forall_app; split; [repeat constructor|exact Hb]|apply sh_nil].
  - cbn [app map arg_len]. rewrite (proj2 Ws), (proj2 Wt), (proj2 Wi), Lcmd. reflexivity.
  - rewrite ir_length, Nat.even_add, Nat.even_mul. reflexivity.
  - rewrite ir_length. replace (166 + 2 * (4 + length text))%nat with ((83 + (4 + length text)) * 2)%nat by lia.
    rewrite Nat.div_mul by lia. lia.
Qed.
End Sites.
Arguments status_site {idb sessb} now _ _ _ _ st {mbyte tg fnib} sw {mv fv}.
Arguments ir_site {idb sessb} now _ _ _ _ {text}.

(* an IR command of the Spec, as the (command, length) pair the model's builders return *)
Lemma code_result text : N.of_nat (length text) < 65000 ->
  result_of_spec (Code text) =
    Some (Ok (s2l "00000000" ++ hexlify text, hexlify (le16 (N.of_nat (length (s2l "00000000" ++ hexlify text) / 2))))).
Proof.
  intros Hn. cbn [result_of_spec]. rewrite breeze_command_length_ok; [reflexivity|]. rewrite cmd_half. lia.
Qed.

Section Call.
Variables (idb : bytes) (now : N) (r0 : bytes).
Hypothesis Lid : length idb = 3%nat.
Hypothesis Hid : Forall (fun b => b < 256) idb.
Hypothesis Hr0 : Forall (fun b => b < 256) r0.
Hypothesis Lr0 : (12 <= length r0)%nat.
Let sessb := pyslice 8 12 r0.
Let h := hdr_args sessb now idb.

Lemma sess_facts : length sessb = 4%nat /\ Forall (fun b => b < 256) sessb.
Proof. split; [apply pyslice_length, Lr0|apply Forall_pyslice, Hr0]. Qed.

Lemma breeze_query : exists GS, frame_of L_get_state2 h = Frame GS /\ forall st,
  send_template_gen false T_GET_STATE_PACKET2_TYPE2
    [AStr (pyslice 16 24 (hexlify r0)); AStr (hexlify (le32 now)); AStr (hexlify idb)] false st = (push GS st, Ok (hd [] (replies st))).
Proof.
  destruct (command_exact now Lid Hid Hr0 Lr0 false M_get_state2 (I_get_state true) (Forall2_nil _)) as [GS H].
  exists GS. exact H.
Qed.
End Call.
Arguments breeze_query {idb} now {r0}.
