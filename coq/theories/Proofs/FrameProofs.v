(* What a call site writes is the rendered text, sealed: Spec/FrameSpec.v's [seal] fills in the length and appends the
   signature, and that is what set_message_length and sign_packet_with_crc_key do between them (the first only where the
   call site asks for it; elsewhere the template must carry the right length itself).  A sealed text that starts with the
   magic and has the terminator at bytes 38-39 satisfies the frame predicate of Spec/Frame.v. *)
Require Import AS.Base.Prelude AS.Base.Hex AS.Base.Template AS.Spec.Sign AS.Spec.Frame AS.Spec.FrameSpec
  AS.Model.DeviceTools AS.Proofs.SignProofs AS.Proofs.HexSlices AS.Proofs.LengthProofs AS.Proofs.Wire.
Open Scope N_scope.

Lemma bytes_eqb_refl a : bytes_eqb a a = true.
Proof. exact (pairwise_eqb_refl N.eqb N.eqb_refl a). Qed.
Lemma bytes_eqb_eq a b : bytes_eqb a b = true -> a = b.
Proof. apply (pairwise_eqb_eq N.eqb). intros x y. apply N.eqb_eq. Qed.

(* what [seal] signs: the text with its final length at bytes 2-3 *)
Definition relen (b : bytes) : bytes := firstn 2 b ++ le16 (N.of_nat (length b + 4)) ++ skipn 4 b.

Lemma seal_relen b : seal b = relen b ++ sig (relen b).
Proof. reflexivity. Qed.

Lemma relen_length b : (4 <= length b)%nat -> length (relen b) = length b.
Proof. intros H. unfold relen. rewrite !app_length, firstn_length, skipn_length. cbn [length le16]. lia. Qed.

Lemma relen_keeps b lo hi : (2 <= length b)%nat -> (4 <= lo)%nat -> pyslice lo hi (relen b) = pyslice lo hi b.
Proof.
  intros Hl Hlo. unfold relen. rewrite app_assoc. apply pyslice_app_skipn; [|exact Hlo].
  rewrite app_length, firstn_length. cbn [length le16]. lia.
Qed.

Lemma seal_keeps b lo hi : (4 <= lo)%nat -> (lo <= hi)%nat -> (hi <= length b)%nat -> pyslice lo hi (seal b) = pyslice lo hi b.
Proof.
  intros Hlo Hle Hhi. rewrite seal_relen.
  rewrite pyslice_app_l by (rewrite relen_length; lia). apply relen_keeps; lia.
Qed.

Lemma seal_fixed b : pyslice 2 4 b = le16 (N.of_nat (length b + 4)) -> seal b = b ++ sig b.
Proof.
  intros H. rewrite seal_relen. replace (relen b) with b; [reflexivity|].
  unfold relen. rewrite <- H.
  rewrite <- (firstn_skipn 2 b) at 1. f_equal. rewrite <- (firstn_skipn 2 (skipn 2 b)) at 1. rewrite skipn_skipn'. reflexivity.
Qed.

(* the frame predicate on a signed text: the signature is right by construction, the rest is read off the text *)
Lemma frame_okb_signed b : frame_okb (b ++ sig b) = true <->
  (40 <= length b)%nat /\ pyslice 0 2 b = [254; 240] /\ pyslice 2 4 b = le16 (N.of_nat (length b + 4)) /\ pyslice 38 40 b = [240; 254].
Proof.
  unfold frame_okb. rewrite app_length. change (length (sig b)) with 4%nat. rewrite Nat.add_sub.
  rewrite (pyslice_app_r b (sig b) : pyslice (length b) (length b + 4) _ = _), pyslice_app_whole_l, bytes_eqb_refl, andb_true_r.
  split.
  - intros [[[Hl%Nat.leb_le H0]%andb_prop H2]%andb_prop H38]%andb_prop.
    rewrite pyslice_app_l in H0, H2, H38 by lia. apply bytes_eqb_eq in H0, H2, H38. repeat split; (assumption || lia).
  - intros (Hl & H0 & H2 & H38). rewrite !pyslice_app_l, H0, H2, H38, !bytes_eqb_refl by lia.
    rewrite (proj2 (Nat.leb_le 44 (length b + 4))) by lia. reflexivity.
Qed.

Lemma seal_ok b : (40 <= length b)%nat -> firstn 2 b = [254; 240] -> pyslice 38 40 b = [240; 254] -> frame_okb (seal b) = true.
Proof.
  intros Hl H0 H38. rewrite seal_relen. apply frame_okb_signed.
  rewrite relen_length, (relen_keeps b 38 40) by lia. split; [exact Hl|]. split; [|split; [|exact H38]]; unfold relen; rewrite H0; reflexivity.
Qed.

Lemma slice_known p b lit bl a : unhexlify p = Some b -> unhexlify lit = Some bl ->
  pyslice (2*a) (2*a + length lit) p = lit -> pyslice a (a + length bl) b = bl.
Proof.
  intros Hp Hl Hs. pose proof (unhexlify_length lit bl Hl) as Hlen.
  pose proof (unhexlify_slice a (a + length bl) p b Hp) as H.
  replace (2 * (a + length bl))%nat with (2*a + length lit)%nat in H by lia.
  congruence.
Qed.

Lemma text_sealed (fl : bool) p b : unhexlify p = Some b ->
  (if fl then pyslice 0 4 p = s2l "fef0" /\ N.of_nat (length b + 4) < 65536
   else pyslice 4 8 p = hexlify (le16 (N.of_nat (length b + 4)))) ->
  wire_text false p fl = Ok (seal b).
Proof.
  intros Hb H. unfold wire_text. destruct fl.
  - destruct H as [H0 Hn]. rewrite (set_message_length_eq p b Hb Hn). cbn [bind].
    rewrite (signed_bytes _ (relen b)); [reflexivity|]. unfold relen.
    rewrite (slice_known p b (s2l "fef0") [254; 240] 0 Hb eq_refl H0 : firstn 2 b = _).
    apply (unhexlify_app _ [254; 240]); [reflexivity|].
    apply unhexlify_app; [apply unhexlify_hexlify, le16_bytes|exact (unhexlify_skipn 4 p b Hb)].
  - cbn [bind]. rewrite (signed_bytes p b Hb), seal_fixed; [reflexivity|].
    exact (slice_known p b _ (le16 (N.of_nat (length b + 4))) 2 Hb (unhexlify_hexlify _ (le16_bytes _)) H).
Qed.

(* the call-site lemma: a hex text of even length that carries magic and terminator in its 80-character header, and its own
   final length unless that is filled in, is written sealed, as a well-formed frame *)
Theorem text_frame (fl : bool) p : Forall (fun c => is_hexchar c = true) p -> Nat.even (length p) = true -> (80 <= length p)%nat ->
  pyslice 0 4 p = s2l "fef0" -> pyslice 76 80 p = s2l "f0fe" ->
  (if fl then N.of_nat (length p / 2 + 4) < 65536 else pyslice 4 8 p = hexlify (le16 (N.of_nat (length p / 2 + 4)))) ->
  exists b, unhexlify p = Some b /\ wire_text false p fl = Ok (seal b) /\ frame_okb (seal b) = true.
Proof.
  intros Hh He Hl H0 H76 Hlen. destruct (unhexlify_total p Hh He) as [b Hb]. exists b.
  pose proof (unhexlify_length p b Hb) as Hlb.
  replace (length p / 2)%nat with (length b) in Hlen by (rewrite Hlb, Nat.mul_comm, Nat.div_mul; lia).
  split; [exact Hb|]. split.
  - apply text_sealed; [exact Hb|]. destruct fl; auto.
  - apply seal_ok; [lia| |].
    + exact (slice_known p b (s2l "fef0") [254; 240] 0 Hb eq_refl H0).
    + exact (slice_known p b (s2l "f0fe") [240; 254] 38 Hb eq_refl H76).
Qed.

(* with the length filled in, a text is written only if it decodes and its frame fits 16 bits *)
Lemma text_sealed_unhex lg p bs : wire_text lg p true = Ok bs ->
  exists b, unhexlify p = Some b /\ (lg = false -> N.of_nat (length b + 4) < 65536).
Proof.
  unfold wire_text. destruct (set_message_length lg p) as [p'|] eqn:E; [|discriminate]. intros _.
  exact (set_message_length_inv lg p p' E).
Qed.
Lemma text_sealed_inv lg p bs : wire_text lg p true = Ok bs -> Nat.even (length p) = true /\ (lg = false -> N.of_nat (length p / 2 + 4) < 65536).
Proof.
  intros H. destruct (text_sealed_unhex lg p bs H) as (b & Hb & Hn).
  rewrite (unhexlify_length p b Hb), Nat.even_mul, Nat.mul_comm, Nat.div_mul by lia. split; [reflexivity|exact Hn].
Qed.

Definition cell_known (c : cell) (x : N) : bool := match c with K y => N.eqb x y | U _ _ => false end.
Definition known_at (cs : list cell) (off : nat) (lit : bytes) : bool :=
  (length (pyslice off (off + length lit) cs) =? length lit)%nat &&
  forallb (fun '(c, x) => cell_known c x) (combine (pyslice off (off + length lit) cs) lit).

Lemma known_at_sound rs cs off lit : known_at cs off lit = true ->
  pyslice off (off + length lit) (map (denote rs) cs) = lit.
Proof.
  intros H. rewrite pyslice_map. apply (pairwise_map cell_known); [|exact H].
  intros [y|i k] x Hc; [|discriminate]. symmetry. apply N.eqb_eq, Hc.
Qed.

Definition c01_cells_ok (cs : list cell) : bool :=
  let n := length cs in
  Nat.even n && (80 <=? n)%nat &&
  forallb (fun c => match c with K x => is_hexchar x | U _ _ => true end) cs &&
  known_at cs 0 (s2l "fef0") &&
  known_at cs 4 (hexlify (le16 (N.of_nat (n / 2 + 4)))) &&
  known_at cs 76 (s2l "f0fe").

Definition args_hex (rs : list bytes) : Prop := Forall (Forall (fun c => is_hexchar c = true)) rs.

Lemma denote_hex rs cs : args_hex rs ->
  forallb (fun c => match c with K x => is_hexchar x | U _ _ => true end) cs = true ->
  (forall i k, In (U i k) cs -> (k < length (nth i rs []))%nat) ->
  Forall (fun c => is_hexchar c = true) (map (denote rs) cs).
Proof.
  intros Hr Hk Hu. rewrite forallb_forall in Hk. apply Forall_map, Forall_forall. intros [y|i k] Hin; [exact (Hk _ Hin)|].
  specialize (Hu i k Hin). cbn [denote]. destruct (Nat.lt_ge_cases i (length rs)) as [Hi|Hi].
  - apply Forall_nth; [|exact Hu]. apply (proj1 (Forall_nth _ rs)); [exact Hr|exact Hi].
  - rewrite nth_overflow in Hu by exact Hi. inversion Hu.
Qed.

(* the decision on the cells gives the premises of text_frame for every instance of the arguments *)
Lemma cells_frame cs rs : c01_cells_ok cs = true -> args_hex rs ->
  (forall i k, In (U i k) cs -> (k < length (nth i rs []))%nat) ->
  exists b, unhexlify (map (denote rs) cs) = Some b /\ wire_text false (map (denote rs) cs) false = Ok (seal b) /\
            frame_okb (seal b) = true.
Proof.
  intros [[[[[He Hl%Nat.leb_le]%andb_prop Hx]%andb_prop K0]%andb_prop K4]%andb_prop K76]%andb_prop Hr Hu.
  apply text_frame; rewrite ?map_length; try assumption.
  - apply denote_hex; assumption.
  - exact (known_at_sound rs cs 0 (s2l "fef0") K0).
  - exact (known_at_sound rs cs 76 (s2l "f0fe") K76).
  - exact (known_at_sound rs cs 4 _ K4).
Qed.

Theorem c01_sound cs rs : c01_cells_ok cs = true -> args_hex rs ->
  (forall i k, In (U i k) cs -> (k < length (nth i rs []))%nat) ->
  exists out bs, sign_packet_with_crc_key (map (denote rs) cs) = Ok out /\
                 unhexlify out = Some bs /\ frame_okb bs = true.
Proof.
  intros H Hr Hu. destruct (cells_frame cs rs H Hr Hu) as [b [Hb [Hw Hk]]].
  unfold wire_text in Hw. cbn [bind] in Hw. rewrite (signed_bytes _ b Hb) in Hw. injection Hw as Hw. rewrite <- Hw in Hk.
  exists (map (denote rs) cs ++ hexlify (sig b)), (b ++ sig b). split; [apply sign_spec, Hb|]. split; [|exact Hk].
  apply unhexlify_app; [exact Hb|apply unhexlify_hexlify, sig_bytes].
Qed.
Print Assumptions c01_sound.
