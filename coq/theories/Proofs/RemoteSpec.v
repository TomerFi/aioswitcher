(* C15: the remote the code builds from an IR set has the capabilities present in the set, and build_command
   returns the code the declarative Spec (Spec/Remote.v) names *)
Require Import AS.Base.Prelude AS.Base.Hex AS.Base.Dec AS.Gen.Extracted AS.Model.DeviceTools AS.Model.Remotes AS.Spec.Remote
  AS.Proofs.RemotesProofs.
Open Scope Z_scope.

Definition wave_entry (w : wave) : bytes * (bytes * bytes) := (w_key w, (w_para w, w_hex w)).

Lemma map_get_app k m1 m2 : map_get k (m1 ++ m2) = match map_get k m2 with Some v => Some v | None => map_get k m1 end.
Proof.
  induction m1 as [|[k' v] m1 IH]; cbn [app map_get]; [|rewrite IH]; destruct (map_get k m2); reflexivity.
Qed.
(* the dict built wave by wave, read as "the last wave with this key" *)
Lemma map_get_stored k ws : map_get k (map wave_entry ws) =
  match find (fun w => beq (w_key w) k) (rev ws) with Some w => Some (w_para w, w_hex w) | None => None end.
Proof.
  induction ws as [|w ws IH] using rev_ind; [reflexivity|]. rewrite map_app, map_get_app, rev_app_distr, IH.
  cbn [map map_get rev app find wave_entry]. unfold beq.
  destruct (bytes_eq_dec k (w_key w)), (bytes_eq_dec (w_key w) k); try reflexivity; congruence.
Qed.
(* mode_of_code is this find, on command_to_mode *)
Lemma assoc_s_find c l : assoc_s c l = match find (fun '(a, _) => beq c (s2l a)) l with Some (_, m) => Some m | None => None end.
Proof.
  induction l as [|[a b] l IH]; [reflexivity|]. cbn [assoc_s find]. unfold beq. destruct (bytes_eq_dec c (s2l a)); [reflexivity|exact IH].
Qed.

Lemma temp_of_key k : (if all_digits (pyslice 2 4 k) then Some (digits_val (pyslice 2 4 k)) else None) = two_digit_temp k.
Proof.
  unfold two_digit_temp, pyslice, all_digits, digits_val. change (4 - 2)%nat with 2%nat.
  destruct (firstn 2 (skipn 2 k)) as [|a [|b [|c r]]] eqn:E; cbn [forallb fold_left andb]; rewrite ?Bool.andb_true_r.
  - reflexivity.
  - destruct (is_digit a); [|reflexivity]. repeat f_equal; lia.
  - destruct (is_digit a && is_digit b)%bool; [|reflexivity]. repeat f_equal; lia.
  - assert (H : (length (firstn 2 (skipn 2 k)) <= 2)%nat) by apply firstn_le_length. rewrite E in H. cbn in H. lia.
Qed.

Definition add_mode (sup : list string) (m : option string) : list string :=
  match m with Some x => if existsb (String.eqb x) sup then sup else sup ++ [x] | None => sup end.

Lemma resolve_step_fields r w :
  r_toggle (resolve_step r w) = r_toggle r /\ r_sep (resolve_step r w) = r_sep r /\
  r_map (resolve_step r w) = r_map r ++ [wave_entry w] /\
  r_supported (resolve_step r w) = add_mode (r_supported r) (mode_of_code (firstn 2 (w_key w))) /\
  r_min (resolve_step r w) = match two_digit_temp (w_key w) with Some v => Z.min (r_min r) v | None => r_min r end /\
  r_max (resolve_step r w) = match two_digit_temp (w_key w) with Some v => Z.max (r_max r) v | None => r_max r end.
Proof.
  unfold resolve_step. rewrite <- temp_of_key, assoc_s_find.
  destruct (all_digits (pyslice 2 4 (w_key w))); cbn [r_toggle r_sep r_map r_supported r_min r_max]; repeat split.
  - destruct (Z.ltb_spec (digits_val (pyslice 2 4 (w_key w))) (r_min r)); lia.
  - destruct (Z.ltb_spec (r_max r) (digits_val (pyslice 2 4 (w_key w)))); lia.
Qed.

Lemma fold_resolve ws : forall r,
  r_toggle (fold_left resolve_step ws r) = r_toggle r /\ r_sep (fold_left resolve_step ws r) = r_sep r /\
  r_map (fold_left resolve_step ws r) = r_map r ++ map wave_entry ws /\
  r_supported (fold_left resolve_step ws r) = fold_left add_mode (map (fun k => mode_of_code (firstn 2 k)) (map w_key ws)) (r_supported r) /\
  r_min (fold_left resolve_step ws r) = fold_left Z.min (filter_map two_digit_temp (map w_key ws)) (r_min r) /\
  r_max (fold_left resolve_step ws r) = fold_left Z.max (filter_map two_digit_temp (map w_key ws)) (r_max r).
Proof.
  induction ws as [|w ws IH]; intros r; cbn [fold_left map filter_map]; [rewrite app_nil_r; repeat split|].
  destruct (IH (resolve_step r w)) as (A & B & C & D & E & F). destruct (resolve_step_fields r w) as (A1 & B1 & C1 & D1 & E1 & F1).
  rewrite A, B, C, D, E, F, A1, B1, C1, D1, E1, F1, <- app_assoc. destruct (two_digit_temp (w_key w)); repeat split.
Qed.

Lemma make_remote_map s : r_map (make_remote s) = map wave_entry (ir_waves s).
Proof. apply fold_resolve. Qed.
Lemma present_stored s k :
  map_get k (r_map (make_remote s)) = match stored s k with Some w => Some (w_para w, w_hex w) | None => None end.
Proof. rewrite make_remote_map. apply map_get_stored. Qed.

(* appending the modes not seen yet, from the left = first occurrences in order *)
Lemma add_modes {A} (f : A -> option string) l : forall acc,
  fold_left add_mode (map f l) acc = acc ++ filter (fun y => negb (existsb (String.eqb y) acc)) (nodup_s (filter_map f l)).
Proof.
  induction l as [|x l IH]; intros acc; cbn [map fold_left filter_map]; [symmetry; apply app_nil_r|].
  destruct (f x) as [m|]; cbn [add_mode nodup_s filter]; [|apply IH].
  rewrite filter_filter. destruct (existsb (String.eqb m) acc) eqn:E; cbn [negb]; rewrite IH.
  - f_equal. apply filter_ext. intros y. destruct (String.eqb_spec m y) as [<-|_]; [rewrite E|]; reflexivity.
  - rewrite <- app_assoc. cbn [app]. do 2 f_equal. apply filter_ext. intros y. rewrite existsb_app. cbn [existsb].
    rewrite (String.eqb_sym y m), Bool.orb_false_r, Bool.negb_orb. apply Bool.andb_comm.
Qed.

(* special_swing_ids (from the sources) and the Spec's separate_swing_ids name the same four ids; the first lists one twice *)
Lemma sep_ids_agree (k : bytes) :
  existsb (fun x => if bytes_eq_dec k (s2l x) then true else false) special_swing_ids =
  existsb (fun x => beq k (s2l x)) separate_swing_ids.
Proof.
  unfold special_swing_ids, separate_swing_ids, beq. cbn [existsb]. destruct (bytes_eq_dec k (s2l "ZM079065")); reflexivity.
Qed.

Theorem capabilities_are_those_of_the_set s :
  let r := make_remote s in
  (r_supported r, r_min r, r_max r, r_toggle r, r_sep r) = spec_capabilities s.
Proof.
  unfold make_remote, spec_capabilities.
  edestruct (fold_resolve (ir_waves s)) as (A & B & _ & D & E & F). rewrite A, B, D, E, F.
  cbn [r_supported r_min r_max r_toggle r_sep].
  rewrite add_modes, filter_true, (sep_ids_agree (ir_id s)).
  (* the model folds from the left, the Spec from the right *)
  rewrite (fold_symmetric _ Z.min_assoc _ (Z.min_comm _)), (fold_symmetric _ Z.max_assoc _ (Z.max_comm _)). reflexivity.
Qed.
Print Assumptions capabilities_are_those_of_the_set.

(* code_of_mode and code_of_fan are this find, on the two tables *)
Lemma assoc_n_find k l : assoc_n k l = match find (fun '(a, _) => String.eqb k a) l with Some (_, b) => s2l b | None => [] end.
Proof. induction l as [|[a b] l IH]; [reflexivity|]. cbn [assoc_n find]. destruct (String.eqb k a); [reflexivity|exact IH]. Qed.

Lemma in_nodup_s x l : In x (nodup_s l) -> In x l.
Proof.
  induction l as [|y l IH]; [auto|]. intros [->|H]; [left; reflexivity|right; apply IH].
  apply filter_In in H. exact (proj1 H).
Qed.
Lemma in_filter_map {A B} (f : A -> option B) l y : In y (filter_map f l) -> exists x, f x = Some y.
Proof.
  induction l as [|x l IH]; [intros []|]. cbn [filter_map]. destruct (f x) as [z|] eqn:E; [|exact IH].
  intros [->|H]; [exists x; exact E|exact (IH H)].
Qed.
Lemma mode_values_classified : forallb (fun '(_, m) => xorb (is_fan_mode m) (is_temp_mode m)) command_to_mode = true.
Proof. vm_compute. reflexivity. Qed.
Lemma mode_of_code_classified c m : mode_of_code c = Some m -> xorb (is_fan_mode m) (is_temp_mode m) = true.
Proof.
  unfold mode_of_code. destruct (find _ command_to_mode) as [[a b]|] eqn:E; [|discriminate]. intros H; inversion H; subst.
  apply find_some in E. pose proof mode_values_classified as Hc. rewrite forallb_forall in Hc. exact (Hc _ (proj1 E)).
Qed.
Lemma supported_classified s m : existsb (String.eqb m) (let '(sup, _, _, _, _) := spec_capabilities s in sup) = true ->
  xorb (is_fan_mode m) (is_temp_mode m) = true.
Proof.
  unfold spec_capabilities. intros H. apply existsb_exists in H. destruct H as [x [Hin Hx]]. apply String.eqb_eq in Hx. subst x.
  apply in_nodup_s in Hin. destruct (in_filter_map _ _ _ Hin) as [k Hk]. exact (mode_of_code_classified _ _ Hk).
Qed.

Definition result_of_spec (c : spec_cmd) : option (result (bytes * bytes)) :=
  match c with
  | Code text => Some (let cmd := s2l "00000000" ++ hexlify text in do len <- breeze_command_length false cmd ;; Ok (cmd, len))
  | Refused => Some (Exc RuntimeError)
  | Silent => None
  end.

Definition code (w : wave) : bytes := s2l "00000000" ++ hexlify (w_para w ++ [124%N] ++ w_hex w).

Lemma command_of_stored s k w : stored s (concat k) = Some w -> command_of (make_remote s) k = Ok (code w).
Proof. intros H. unfold command_of. rewrite present_stored, H. reflexivity. Qed.

(* the test of the pop loop, as build_command passes it to lookup_key *)
Definition in_map (s : irset) (k : bytes) : bool := match map_get k (r_map (make_remote s)) with Some _ => true | None => false end.
Lemma in_map_stored s k : in_map s k = match stored s k with Some _ => true | None => false end.
Proof. unfold in_map. rewrite present_stored. destruct (stored s k); reflexivity. Qed.

Lemma command_of_hit s P w : P <> [] -> stored s (concat P) = Some w ->
  command_of (make_remote s) (lookup_key (in_map s) P) = Ok (code w).
Proof.
  intros HP E. rewrite lookup_key_hit; [apply command_of_stored, E|exact HP|]. rewrite in_map_stored, E. reflexivity.
Qed.

(* for bytes only: rewrite does not find the pattern of the statement for list (list A) in a goal that spells the type list bytes *)
Lemma concat_snoc (l : list bytes) (x : bytes) : concat (l ++ [x]) = concat l ++ x.
Proof. rewrite concat_app. cbn [concat]. rewrite app_nil_r. reflexivity. Qed.

(* one turn of the pop loop, seen through command_of: the code stored under the whole key, else go on without its last part *)
Lemma command_of_snoc s P x : P <> [] ->
  command_of (make_remote s) (lookup_key (in_map s) (P ++ [x])) =
  match stored s (concat P ++ x) with Some w => Ok (code w) | None => command_of (make_remote s) (lookup_key (in_map s) P) end.
Proof.
  intros HP. destruct (stored s (concat P ++ x)) as [w|] eqn:E.
  - apply command_of_hit; [destruct P; discriminate|]. rewrite concat_snoc. exact E.
  - rewrite lookup_key_snoc by exact HP. rewrite in_map_stored, concat_snoc, E. reflexivity.
Qed.

(* the key list prel ++ mid ++ [fan part] ++ [swing part]: command_of after the pop loop reads the first stored of the Spec's
   three candidate strings *)
Lemma command_of_lookup s (prel mid : list bytes) (fan : string) (swing : bool) : mid <> [] ->
  let fanp := 95%N :: assoc_n fan fan_to_command in
  let sw := if swing then [s2l "_d1"] else [] in
  let base := concat prel ++ concat mid in
  let with_fan := base ++ [95%N] ++ code_of_fan fan in
  match filter_map (stored s) [if swing then with_fan ++ s2l "_d1" else with_fan; with_fan; base] with
  | w :: _ => command_of (make_remote s) (lookup_key (in_map s) (prel ++ mid ++ [fanp] ++ sw)) = Ok (code w)
  | [] => True
  end.
Proof.
  intros Hmid fanp sw base with_fan. rewrite (app_assoc prel mid). set (P := prel ++ mid).
  assert (HP : P <> []) by (unfold P; destruct prel, mid; try discriminate; contradiction).
  assert (C0 : concat P = base) by apply concat_app.
  assert (C1 : concat P ++ fanp = with_fan) by (unfold fanp; rewrite C0, assoc_n_find; reflexivity).
  (* without the swing part: with_fan, else base *)
  assert (H2 : match filter_map (stored s) [with_fan; base] with
               | w :: _ => command_of (make_remote s) (lookup_key (in_map s) (P ++ [fanp])) = Ok (code w)
               | [] => True
               end).
  { cbn [filter_map]. rewrite command_of_snoc, C1 by exact HP. destruct (stored s with_fan); [reflexivity|].
    destruct (stored s base) as [w|] eqn:E; [|exact I]. apply command_of_hit; [exact HP|]. rewrite C0. exact E. }
  unfold sw. cbn [filter_map] in *. destruct swing.
  - rewrite (app_assoc P), command_of_snoc, concat_snoc, C1 by (destruct P; discriminate).
    destruct (stored s (with_fan ++ s2l "_d1")); [reflexivity|exact H2].
  - destruct (stored s with_fan); exact H2.
Qed.

Lemma result_of_first (l : list wave) (c : result bytes) :
  match l with w :: _ => c = Ok (code w) | [] => True end ->
  match result_of_spec match l with w :: _ => Code (w_para w ++ [124%N] ++ w_hex w) | [] => Silent end with
  | Some r' => (do cmd <- c ;; do len <- breeze_command_length false cmd ;; Ok (cmd, len)) = r'
  | None => True
  end.
Proof. destruct l as [|w ?]; [trivial|]. intros ->. reflexivity. Qed.

Theorem build_command_is_the_spec s on mode target fan swing current :
  match result_of_spec (spec_build s on mode target fan swing current) with
  | Some r' => build_command false (make_remote s) on mode target fan swing current = r'
  | None => True
  end.
Proof.
  pose proof (capabilities_are_those_of_the_set s) as Hcaps.
  pose proof (supported_classified s mode) as Hclass.
  unfold spec_build. destruct (spec_capabilities s) as [[[[sup mn] mx] tg] sp]. injection Hcaps as E1 E2 E3 E4 _.
  unfold build_command. rewrite E1, E2, E3, E4.
  set (t := if mx <? target then mx else if target <? mn then mn else target).
  destruct (negb (existsb (String.eqb mode) sup)) eqn:Esup; [reflexivity|].
  apply Bool.negb_false_iff in Esup. specialize (Hclass Esup).
  destruct (negb tg && negb on)%bool eqn:Eoff.
  - destruct (stored s (s2l "off")) as [w|] eqn:Es; [|exact I].
    rewrite (command_of_stored s [s2l "off"] w) by (cbn [concat]; rewrite app_nil_r; exact Es). reflexivity.
  - set (ch := (tg && match current with Some c => negb (Bool.eqb c on) | None => false end)%bool).
    set (prel := if ch then [s2l "on_"] else []).
    assert (Hpre : (if ch then s2l "on_" else []) = concat prel) by (unfold prel; destruct ch; reflexivity). rewrite Hpre.
    (* the key list between the toggle prefix and the fan part, for the two kinds of mode *)
    pose proof (command_of_lookup s prel (assoc_n mode mode_to_command :: if is_temp_mode mode then [str_Z t] else []) fan swing) as H3.
    unfold code_of_mode. rewrite <- assoc_n_find. change (temp_mode mode) with (is_temp_mode mode).
    destruct (is_fan_mode mode), (is_temp_mode mode); try discriminate Hclass; cbn [concat app] in H3 |- *;
      rewrite ?app_nil_r in H3; rewrite ?app_nil_r; apply result_of_first, H3; discriminate.
Qed.
Print Assumptions build_command_is_the_spec.

Lemma swing_is_the_spec s on : match result_of_spec (spec_swing s on) with
  | Some r' => build_swing_command false (make_remote s) on = r' | None => True end.
Proof.
  unfold spec_swing, build_swing_command. rewrite present_stored.
  destruct (stored s (s2l (if on then "FUN_d1" else "FUN_d0"))) as [w|]; reflexivity.
Qed.
