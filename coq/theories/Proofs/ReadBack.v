(* C10, create / read back: the instant create_schedule encodes for a minute of today, and what it takes for that minute to exist today *)
Require Import AS.Base.Prelude AS.Base.Hex AS.Base.Dec AS.Model.ScheduleParser AS.Model.Clock AS.Proofs.ClockStrings AS.Proofs.ClockProofs.

Local Open Scope Z_scope.
Definition instant (z : zone) (now : Z) (hm : N) : Z :=
  mktime_model z (86400 * today z now + Z.of_N (3600 * (hm / 60) + 60 * (hm mod 60))).
Definition exists_today (z : zone) (now : Z) (hm : N) : Prop :=
  (exists t, local_secs z t = 86400 * today z now + Z.of_N (3600 * (hm / 60) + 60 * (hm mod 60))) /\
  0 <= instant z now hm < 4294967296.

(* C11's round trip in the terms of the two definitions: the encoder writes the instant, whose local time reads hh:mm again *)
Lemma instant_reads_back z now hm : (hm < 1440)%N -> exists_today z now hm ->
  let t := Z.to_N (instant z now hm) in
  (t < 4294967296)%N /\ time_to_hexadecimal_timestamp_z false z now (hhmm hm) = Ok (hexlify (le32 t)) /\ fmt_hm z t = hhmm hm.
Proof.
  intros Hhm [Ex R] t. assert (Ht : (t < 4294967296)%N) by (unfold t; lia).
  destruct (clock_roundtrip_string z now (hhmm hm) _ _ (strptime_hhmm hm Hhm) Ex R) as [E [_ D]].
  fold (instant z now hm) in E, D. fold t in E, D. rewrite (decode_le32 z t Ht) in D. injection D as D. auto.
Qed.
