(* every extracted template renders exactly like its independently written layout *)
Require Import AS.Base.Prelude AS.Base.Template AS.Gen.Extracted AS.Spec.FrameLayout.

(* merge adjacent literals, so that two templates are compared up to how their text is chunked *)
Fixpoint norm (t : template) : template :=
  match t with
  | Lit a :: r => match norm r with Lit b :: r' => Lit (a ++ b) :: r' | r' => Lit a :: r' end
  | p :: r => p :: norm r
  | [] => []
  end.
Definition piece_eqb (p q : piece) : bool :=
  match p, q with
  | Lit a, Lit b => if bytes_eq_dec a b then true else false
  | Hole i, Hole j | HoleHex2 i, HoleHex2 j => Nat.eqb i j
  | _, _ => false
  end.
Definition template_eqb (a b : template) : bool :=
  (length (norm a) =? length (norm b))%nat && forallb (fun '(p, q) => piece_eqb p q) (combine (norm a) (norm b)).
Definition matches (t : template) (l : list sfield) : bool := template_eqb t (spec_template l).

Lemma format_lit_app a b r args : format (Lit (a ++ b) :: r) args = format (Lit a :: Lit b :: r) args.
Proof. cbn [format render_piece bind]. destruct (format r args); cbn [bind]; [rewrite app_assoc|]; reflexivity. Qed.

(* norm differs from consing on the normal form of the tail only where it merges two literals *)
Lemma format_norm t : forall args, format (norm t) args = format t args.
Proof.
  induction t as [|p t IH]; intros args; [reflexivity|].
  assert (H : format (p :: norm t) args = format (p :: t) args) by (cbn [format]; rewrite IH; reflexivity).
  destruct p as [a|i|i]; try exact H. cbn [norm]. destruct (norm t) as [|[b|j|j] r']; try exact H.
  rewrite format_lit_app. exact H.
Qed.

Lemma piece_eqb_eq p q : piece_eqb p q = true -> p = q.
Proof.
  destruct p as [a|i|i], q as [b|j|j]; cbn; try discriminate.
  - destruct (bytes_eq_dec a b); [congruence|discriminate].
  - intros H. f_equal. apply Nat.eqb_eq, H.
  - intros H. f_equal. apply Nat.eqb_eq, H.
Qed.
Lemma matches_format t l args : matches t l = true -> format t args = format (spec_template l) args.
Proof.
  intros H. apply (pairwise_eqb_eq piece_eqb piece_eqb_eq) in H.
  rewrite <- (format_norm t), <- (format_norm (spec_template l)), H. reflexivity.
Qed.

Lemma M_login1 : matches T_LOGIN_PACKET_TYPE1 L_login1 = true.             Proof. vm_compute. reflexivity. Qed.
Lemma M_login2 : matches T_LOGIN2_PACKET_TYPE2 L_login2 = true.            Proof. vm_compute. reflexivity. Qed.
Lemma M_get_state1 : matches T_GET_STATE_PACKET_TYPE1 L_get_state1 = true. Proof. vm_compute. reflexivity. Qed.
Lemma M_get_state2 : matches T_GET_STATE_PACKET2_TYPE2 L_get_state2 = true. Proof. vm_compute. reflexivity. Qed.
Lemma M_control : matches T_SEND_CONTROL_PACKET L_control = true.          Proof. vm_compute. reflexivity. Qed.
Lemma M_auto_off : matches T_SET_AUTO_OFF_SET_PACKET L_auto_off = true.     Proof. vm_compute. reflexivity. Qed.
Lemma M_set_name : matches T_UPDATE_DEVICE_NAME_PACKET L_set_name = true.   Proof. vm_compute. reflexivity. Qed.
Lemma M_get_schedules : matches T_GET_SCHEDULES_PACKET L_get_schedules = true. Proof. vm_compute. reflexivity. Qed.
Lemma M_delete : matches T_DELETE_SCHEDULE_PACKET L_delete = true.          Proof. vm_compute. reflexivity. Qed.
Lemma M_create : matches T_CREATE_SCHEDULE_PACKET L_create = true.          Proof. vm_compute. reflexivity. Qed.
Lemma M_record : matches T_SCHEDULE_CREATE_DATA_FORMAT L_schedule_record = true. Proof. vm_compute. reflexivity. Qed.
Lemma M_breeze_command : matches T_BREEZE_COMMAND_PACKET L_breeze_command = true. Proof. vm_compute. reflexivity. Qed.
Lemma M_breeze_status : matches T_BREEZE_UPDATE_STATUS_PACKET L_breeze_status = true. Proof. vm_compute. reflexivity. Qed.
Lemma M_runner_stop : matches T_RUNNER_STOP_COMMAND L_runner_stop = true.   Proof. vm_compute. reflexivity. Qed.
Lemma M_set_position : matches T_RUNNER_SET_POSITION L_set_position = true. Proof. vm_compute. reflexivity. Qed.
