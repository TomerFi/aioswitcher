Require Import AS.Base.Prelude AS.Base.Hex AS.Base.Crc AS.Model.DeviceTools AS.Spec.Sign.
Open Scope N_scope.

(* bytes 3, 2 of the big-endian word: the low 16 bits, low byte first *)
Lemma crc_slice_be32 c : crc_slice (hexlify (be32 c)) = hexlify (le16 c).
Proof. reflexivity. Qed.

Theorem sign_spec p bs : unhexlify p = Some bs ->
  sign_packet_with_crc_key p = Ok (p ++ hexlify (sig bs)).
Proof.
  intros Hp. unfold sign_packet_with_crc_key, sig, crc16. rewrite Hp. cbn [of_option bind].
  (* the key block ends in 32 characters '0', each spelt "30" in the hex text: hexbyte 48 *)
  rewrite crc_hqx_is_spec, crc_slice_be32, <- (hexlify_repeat 48 32 : _ = concat (repeat (s2l "30") 32)), <- hexlify_app. fold (key_block (crc_spec 4129 bs)).
  rewrite unhexlify_hexlify by (apply Forall_app; split; [apply le16_bytes|apply Forall_repeat; reflexivity]).
  cbn [of_option bind]. rewrite crc_hqx_is_spec, crc_slice_be32, hexlify_app. reflexivity.
Qed.

Lemma list_eqb_refl a : list_eqb a a = true.
Proof. exact (pairwise_eqb_refl N.eqb N.eqb_refl a). Qed.

Theorem sign_checks p out : sign_packet_with_crc_key p = Ok out -> check_sign p out = true.
Proof.
  intros H. unfold check_sign. destruct (unhexlify p) as [bs|] eqn:E.
  - rewrite (sign_spec p bs E) in H. inversion H; subst. apply list_eqb_refl.
  - unfold sign_packet_with_crc_key in H. rewrite E in H. discriminate.
Qed.
