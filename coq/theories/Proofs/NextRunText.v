(* C13: the whole text function, and "the weekday named is one of the selected days" *)
Require Import AS.Base.Prelude AS.Model.ScheduleTools AS.Model.NextRun AS.Model.ScheduleParser
  AS.Spec.FrameSpec AS.Spec.NextRun AS.Proofs.NextRunProofs AS.Proofs.ClockStrings.
Open Scope nat_scope.

Lemma ahead_le w f d : ahead w f d <= 7.
Proof. unfold ahead. pose proof (Nat.mod_upper_bound (d + 7 - w) 7 ltac:(discriminate)). destruct (_ && _); lia. Qed.

Lemma spec_choice w f l : l <> [] -> exists d, In d l /\ min_list (map (ahead w f) l) = ahead w f d.
Proof.
  induction l as [|a l IH]; [contradiction|]. intros _. cbn [map min_list fold_right]. fold (min_list (map (ahead w f) l)).
  destruct l as [|b l'].
  - exists a. split; [left; reflexivity|]. apply Nat.min_l, ahead_le.
  - destruct (IH ltac:(discriminate)) as [d [Hd E]]. rewrite E.
    destruct (Nat.min_spec (ahead w f a) (ahead w f d)) as [[_ ->]|[_ ->]]; [exists a|exists d]; split; auto; [left|right]; auto.
Qed.

(* distances modulo 7; zify does not read mod on nat, so the remainders are handed to it over Z *)
Lemma ahead_mod7 w d : w < 7 -> d < 7 -> let k := (d + 7 - w) mod 7 in
  (w + k) mod 7 = d /\ (k = 0 <-> d = w) /\ (k = 1 <-> d = (w + 1) mod 7) /\ (w + 7) mod 7 = w.
Proof.
  intros Hw Hd k.
  pose proof (Nat2Z.inj_mod (d + 7 - w) 7) as E1. fold k in E1.
  pose proof (Nat2Z.inj_mod (w + k) 7) as E2. pose proof (Nat2Z.inj_mod (w + 1) 7) as E3. pose proof (Nat2Z.inj_mod (w + 7) 7) as E4.
  zify; Z.to_euclidean_division_equations; lia.
Qed.

Theorem spec_names_a_selected_day w f l : w < 7 -> (forall d, In d l -> d < 7) -> l <> [] ->
  match next_run_spec w f l with
  | Today => In w l /\ f = true
  | Tomorrow => In ((w + 1) mod 7) l
  | NextDay d => In d l /\ d <> (w + 1) mod 7 /\ (d = w -> f = false)
  | NREx _ => False
  end.
Proof.
  intros Hw Hb Hne. destruct (spec_choice w f l Hne) as [d [Hd E]].
  destruct (ahead_mod7 w d Hw (Hb d Hd)) as (Kd & K0 & K1 & Kw).
  unfold next_run_spec. destruct l as [|a l']; [contradiction|]. rewrite E. unfold ahead.
  destruct ((d + 7 - w) mod 7) as [|[|k]]; cbn [Nat.eqb andb].
  - (* the nearest day is today's weekday: today if the start is still ahead, else a week from now *)
    rewrite <- (proj1 K0 eq_refl) in *. destruct f; cbn [negb]; [split; [exact Hd|reflexivity]|].
    rewrite Kw. split; [exact Hd|]. split; [|reflexivity]. intros K. apply K1 in K. discriminate.
  - rewrite <- (proj1 K1 eq_refl). exact Hd.
  - rewrite Kd. split; [exact Hd|]. split; [intros K; apply K1 in K; discriminate|intros K; apply K0 in K; discriminate].
Qed.
Print Assumptions spec_names_a_selected_day.

(* the Days table: member d (definition order) has weekday d *)
Lemma weekday_is_index : forallb (fun d => N.to_nat (day_weekday d) =? d) (seq 0 7) = true.
Proof. vm_compute. reflexivity. Qed.
Lemma map_weekday ds : (forall d, In d ds -> d < n_days) -> map (fun d => N.to_nat (day_weekday d)) ds = ds.
Proof.
  intros Hb. rewrite <- (map_id ds) at 2. apply map_ext_in. intros d Hd.
  pose proof weekday_is_index as H. rewrite forallb_forall in H. apply Nat.eqb_eq, H, in_seq.
  specialize (Hb d Hd). change n_days with 7 in Hb. lia.
Qed.

Definition text_of (r : next_run) (start : bytes) : result bytes :=
  match r with
  | Today => Ok (s2l "Due today at " ++ start)
  | Tomorrow => Ok (s2l "Due tomorrow at " ++ start)
  | NextDay w => Ok (s2l "Due next " ++ weekday_value w ++ s2l " at " ++ start)
  | NREx e => Exc e
  end.

Lemma weekday_of_lt z t : weekday_of z t < 7.
Proof. unfold weekday_of. assert (H := Z.mod_pos_bound ((local_secs z t / 86400 + 3)%Z) 7 ltac:(lia)). lia. Qed.

(* C13's text, for every start string the Spec accepts *)
Theorem next_run_text_clock z now st s ds : clock_minutes st = Some s -> NoDup ds -> (forall d, In d ds -> d < n_days) ->
  pretty_next_run false false z now st ds =
  text_of (next_run_spec (weekday_of z now) ((60 * fst (hm_of z now) + snd (hm_of z now) <? s)%N) ds) st.
Proof.
  intros Hs Hn Hb. unfold pretty_next_run. destruct ds as [|d ds'] eqn:E; [reflexivity|]. rewrite <- E in *.
  destruct (clock_minutes_some st s Hs) as (h & m & P & -> & _). rewrite P. cbn [bind fst snd].
  rewrite (map_weekday ds Hb), next_run_core_correct; [| apply weekday_of_lt | exact Hn | exact Hb].
  destruct (next_run_spec _ _ ds); reflexivity.
Qed.
